From PM Require Import Model.Base Model.MiniString Model.StrDecode Proofs.MiniStringProofs.
From Coq Require Import ZifyN.
Open Scope bool_scope.
Open Scope N_scope.

Lemma unhex_hex_digit n : n < 16 -> unhex (hex_digit n) = Some n.
Proof.
  intros H. unfold unhex, hex_digit. destruct (n <? 10) eqn:E.
  - replace ((48 <=? 48 + n) && (48 + n <=? 57)) with true by lia. f_equal. lia.
  - replace ((48 <=? 87 + n) && (87 + n <=? 57)) with false by lia.
    replace ((97 <=? 87 + n) && (87 + n <=? 102)) with true by lia. f_equal. lia.
Qed.

Lemma pow16_S w : 16 ^ N.of_nat (S w) = 16 * 16 ^ N.of_nat w.
Proof. rewrite Nat2N.inj_succ. apply N.pow_succ_r'. Qed.

(* A run of hex digits, as either decoder (dec, decb) reads it: D is the decoder with its style and quote fixed,
   `bound` what its check at the last digit lets through. *)
Section HexRun.
  Variable D : dstate -> text -> option (text * text).
  Variable bound : N.
  Hypothesis Hcons : forall k acc n tail, n < 16 ->
    D (DHex (S (S k)) acc) (hex_digit n :: tail) = D (DHex (S k) (acc * 16 + n)) tail.
  Hypothesis Hlast : forall acc n tail, n < 16 -> acc * 16 + n < bound ->
    D (DHex 1 acc) (hex_digit n :: tail) = cons_res (acc * 16 + n) (D DNorm tail).

  (* hex_fixed peels the last digit, the decoder reads the first: hence k digits still to come *)
  Lemma hex_run : forall w v acc k tail, v < 16 ^ N.of_nat w ->
    D (DHex (w + S k) acc) (hex_fixed w v ++ tail) = D (DHex (S k) (acc * 16 ^ N.of_nat w + v)) tail.
  Proof.
    induction w as [|w IH]; intros v acc k tail Hv.
    - cbn [hex_fixed app Nat.add]. change (16 ^ N.of_nat 0) with 1 in *. f_equal. f_equal. lia.
    - rewrite pow16_S in *. cbn [hex_fixed]. rewrite <- app_assoc. cbn [app].
      replace (S w + S k)%nat with (w + S (S k))%nat by lia.
      rewrite IH by (apply N.div_lt_upper_bound; [discriminate | exact Hv]).
      rewrite Hcons by (apply N.mod_lt; discriminate). f_equal. f_equal. lia.
  Qed.

  Lemma hex_read w v tail : v < 16 ^ N.of_nat (S w) -> v < bound ->
    D (DHex (S w) 0) (hex_fixed (S w) v ++ tail) = cons_res v (D DNorm tail).
  Proof.
    intros Hv Hb. rewrite pow16_S in Hv. cbn [hex_fixed]. rewrite <- app_assoc. cbn [app].
    replace (S w) with (w + 1)%nat by lia.
    rewrite hex_run by (apply N.div_lt_upper_bound; [discriminate | exact Hv]).
    rewrite Hlast by lia. f_equal. lia.
  Qed.
End HexRun.

Lemma dec_hex_cons long q k acc n tail : n < 16 ->
  dec long q (DHex (S (S k)) acc) (hex_digit n :: tail) = dec long q (DHex (S k) (acc * 16 + n)) tail.
Proof. intros H. cbn [dec]. rewrite (unhex_hex_digit n H). reflexivity. Qed.
Lemma dec_hex_last long q acc n tail : n < 16 -> acc * 16 + n < 1114112 ->
  dec long q (DHex 1 acc) (hex_digit n :: tail) = cons_res (acc * 16 + n) (dec long q DNorm tail).
Proof. intros H H2. cbn [dec]. rewrite (unhex_hex_digit n H). replace (acc * 16 + n <? 1114112) with true by lia. reflexivity. Qed.

Lemma dec_raw long q c tail : c <> q -> c <> 92 -> (long = false -> c <> 10) -> c <> 13 -> c <> 0 ->
  dec long q DNorm (c :: tail) = cons_res c (dec long q DNorm tail).
Proof.
  intros H1 H2 H3 H4 H5. cbn [dec].
  replace (c =? 92) with false by lia. replace ((c =? 13) || (c =? 0)) with false by lia. replace (c =? q) with false by lia.
  destruct long; [reflexivity|]. replace (c =? 10) with false by lia. reflexivity.
Qed.
Lemma dec_simple long q e v tail : simple_escape e = Some v ->
  dec long q DNorm (92 :: e :: tail) = cons_res v (dec long q DNorm tail).
Proof. intros H. cbn [dec]. change (92 =? 92) with true. cbv iota. rewrite H. reflexivity. Qed.

Definition code_point (c : N) : Prop := c < 1114112.

Lemma piece_dec long q c p tail : piece 1114112 long q c p -> code_point c ->
  dec long q DNorm (p ++ tail) = cons_res c (dec long q DNorm tail).
Proof.
  intros [H1 H2 H3 H4 H5 | e He | x w Hx Hw] Hc.
  - apply dec_raw; assumption.
  - apply dec_simple. exact He.
  - (* on the two characters 92, x the decoder computes its way to the state DHex w 0 *)
    destruct Hx as [H|[H|[H|[]]]]; injection H as <- <-;
      exact (hex_read (dec long q) 1114112 (dec_hex_cons long q) (dec_hex_last long q) _ c tail (Hw Hc) Hc).
Qed.
Lemma dec_close long q rest : is_quote q -> dec long q DNorm ((if long then [q; q; q] else [q]) ++ rest) = Some ([], rest).
Proof. intros [->| ->]; destruct long; reflexivity. Qed.

Lemma flat_map_decoded (R : text -> option (text * text)) (w : N -> text) cs rest tail :
  Forall (fun c => forall r, R (w c ++ r) = cons_res c (R r)) cs -> R rest = Some ([], tail) ->
  R (flat_map w cs ++ rest) = Some (cs, tail).
Proof.
  intros H Hr. induction H as [|c cs Hc _ IH]; [exact Hr|].
  cbn [flat_map]. rewrite <- app_assoc, Hc, IH. reflexivity.
Qed.

Theorem pieces_decode long q (w : N -> text) s rest :
  is_quote q -> (forall c, piece 1114112 long q c (w c)) -> Forall code_point s ->
  dec long q DNorm (flat_map w s ++ (if long then [q; q; q] else [q]) ++ rest) = Some (s, rest).
Proof.
  intros Hq Hw Hs. apply (flat_map_decoded (dec long q DNorm) w); [|apply dec_close; exact Hq].
  apply (Forall_impl _ (fun c Hc r => piece_dec long q c (w c) r (Hw c) Hc) Hs).
Qed.
