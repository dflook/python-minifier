From PM Require Import Model.Base Model.MiniPy.

Section mstmt_ind2.
  Variable P : mstmt -> Prop.
  Hypothesis Hpass : P SPass.
  Hypothesis Hexpr : forall e, P (SExpr e).
  Hypothesis Hassign : forall v e, P (SAssign v e).
  Hypothesis Hdel : forall v, P (SDel v).
  Hypothesis Hprint : forall e, P (SPrint e).
  Hypothesis Hif : forall c t f, Forall P t -> Forall P f -> P (SIf c t f).
  Hypothesis Hwhile : forall c b, Forall P b -> P (SWhile c b).
  Fixpoint mstmt_ind2 (s : mstmt) : P s :=
    let lf := fix lf (l : list mstmt) : Forall P l := match l with [] => Forall_nil _ | x :: l' => Forall_cons x (mstmt_ind2 x) (lf l') end in
    match s with
    | SPass => Hpass | SExpr e => Hexpr e | SAssign v e => Hassign v e | SDel v => Hdel v | SPrint e => Hprint e
    | SIf c t f => Hif c t f (lf t) (lf f)
    | SWhile c b => Hwhile c b (lf b)
    end.
End mstmt_ind2.

Lemma seq_nil ex ev st : seq_with ex [] ev st = Some {| events := ev; ended := Normal; final := st |}.
Proof. reflexivity. Qed.
(* sequencing: continue with k after a normal ending, stop at out-of-fuel or an exception *)
Definition obind (x : option outcome) (k : list val -> store -> option outcome) : option outcome :=
  match x with None => None | Some o => match ended o with Normal => k (events o) (final o) | Raised _ => Some o end end.
Lemma seq_cons ex s l ev st : seq_with ex (s :: l) ev st = obind (ex s ev st) (seq_with ex l).
Proof. reflexivity. Qed.
Lemma exec_while_S n c b ev st :
  exec (S n) (SWhile c b) ev st =
  match eval c st with
  | inr x => Some {| events := ev; ended := Raised x; final := st |}
  | inl x =>
      if truthy x then obind (seq_with (exec n) b ev st) (exec n (SWhile c b))
      else Some {| events := ev; ended := Normal; final := st |}
  end.
Proof. reflexivity. Qed.
Lemma seq_ext ex ex' l : Forall (fun s => forall ev st, ex s ev st = ex' s ev st) l -> forall ev st, seq_with ex l ev st = seq_with ex' l ev st.
Proof.
  induction 1 as [|s l Hs _ IH]; intros ev st; [reflexivity|]. rewrite !seq_cons, Hs. unfold obind.
  destruct (ex' s ev st) as [o|]; [|reflexivity]. destruct (ended o); [apply IH|reflexivity].
Qed.

Theorem fold_expr_sound e st : eval (fold_expr e) st = eval e st.
Proof.
  induction e as [z|s|v|o a IHa b IHb]; try reflexivity. cbn [fold_expr].
  destruct (fold_expr a) as [x| | |]; destruct (fold_expr b) as [y| | |];
    cbn [eval] in *; rewrite <- IHa, <- IHb; try reflexivity.
  (* both operands have become integer literals *)
  destruct o; reflexivity.
Qed.

(* Simulation over the fuelled interpreter, for a relation R between namespaces: RemovePass (R = eq), renaming and
   hoisting are instances. *)
Section Sim.
  Variable R : store -> store -> Prop.
  (* same shape as `orel` below, so that `orel A s` is convertible with `osim (aliased A s)` *)
  Definition osim (x y : option outcome) : Prop :=
    match x, y with
    | Some o, Some o' => events o = events o' /\ ended o = ended o' /\ R (final o) (final o')
    | None, None => True
    | _, _ => False
    end.
  Definition esim (e e' : mexpr) : Prop := forall st st', R st st' -> eval e' st' = eval e st.
  Definition ssim (s s' : mstmt) : Prop := forall fuel ev st st', R st st' -> osim (exec fuel s ev st) (exec fuel s' ev st').
  Definition lsim (l l' : list mstmt) : Prop :=
    forall fuel ev st st', R st st' -> osim (seq_with (exec fuel) l ev st) (seq_with (exec fuel) l' ev st').

  Lemma osim_ret ev en st st' : R st st' ->
    osim (Some {| events := ev; ended := en; final := st |}) (Some {| events := ev; ended := en; final := st' |}).
  Proof. intro H. exact (conj eq_refl (conj eq_refl H)). Qed.
  Lemma osim_bind x y k k' : osim x y -> (forall ev st st', R st st' -> osim (k ev st) (k' ev st')) -> osim (obind x k) (obind y k').
  Proof.
    intros H Hk. unfold obind. destruct x as [o|], y as [o'|]; try contradiction; [|exact I].
    pose proof H as (He & Hen & Hf). rewrite <- Hen, <- He.
    destruct (ended o); [apply Hk; exact Hf|exact H].
  Qed.

  Lemma lsim_nil : lsim [] [].
  Proof. intros fuel ev st st' H. apply osim_ret. exact H. Qed.
  Lemma lsim_cons s s' l l' : ssim s s' -> lsim l l' -> lsim (s :: l) (s' :: l').
  Proof.
    intros Hs Hl fuel ev st st' H. rewrite !seq_cons.
    apply osim_bind; [apply Hs; exact H|exact (Hl fuel)].
  Qed.
  Lemma lsim_map f l : Forall (fun s => ssim s (f s)) l -> lsim l (map f l).
  Proof. induction 1 as [|s l Hs _ IH]; [apply lsim_nil|]. apply lsim_cons; [exact Hs|exact IH]. Qed.
  (* the step every statement but `pass` and `del` begins with: simulating expressions in related namespaces raise
     the same exception or hand the same value on *)
  Lemma osim_eval e e' k k' ev st st' : esim e e' -> R st st' -> (forall x, osim (k x) (k' x)) ->
    osim (match eval e st with inl x => k x | inr x => Some {| events := ev; ended := Raised x; final := st |} end)
         (match eval e' st' with inl x => k' x | inr x => Some {| events := ev; ended := Raised x; final := st' |} end).
  Proof. intros He H Hk. rewrite (He st st' H). destruct (eval e st) as [x|x]; [apply Hk|apply osim_ret; exact H]. Qed.

  Lemma ssim_pass : ssim SPass SPass.
  Proof. intros fuel ev st st' H. apply osim_ret. exact H. Qed.
  Lemma ssim_expr e e' : esim e e' -> ssim (SExpr e) (SExpr e').
  Proof. intros He fuel ev st st' H. apply osim_eval; [exact He|exact H|intros _]. apply osim_ret. exact H. Qed.
  Lemma ssim_print e e' : esim e e' -> ssim (SPrint e) (SPrint e').
  Proof. intros He fuel ev st st' H. apply osim_eval; [exact He|exact H|intro x]. apply osim_ret. exact H. Qed.
  Lemma ssim_assign v v' e e' : esim e e' -> (forall st st' x, R st st' -> R (update st v x) (update st' v' x)) ->
    ssim (SAssign v e) (SAssign v' e').
  Proof. intros He Hu fuel ev st st' H. apply osim_eval; [exact He|exact H|intro x]. apply osim_ret. apply Hu. exact H. Qed.
  Lemma ssim_del v v' : (forall st st', R st st' -> lookup st' v' = lookup st v /\ R (remove st v) (remove st' v')) ->
    ssim (SDel v) (SDel v').
  Proof.
    intros Hd fuel ev st st' H. cbn [exec]. destruct (Hd st st' H) as [Hl Hr]. rewrite Hl.
    destruct (lookup st v); apply osim_ret; [exact Hr|exact H].
  Qed.
  Lemma ssim_if c c' t t' f f' : esim c c' -> lsim t t' -> lsim f f' -> ssim (SIf c t f) (SIf c' t' f').
  Proof.
    intros Hc Ht Hf fuel ev st st' H. apply osim_eval; [exact Hc|exact H|intro x].
    destruct (truthy x); [apply Ht|apply Hf]; exact H.
  Qed.
  (* the only induction on fuel *)
  Lemma ssim_while c c' b b' : esim c c' -> lsim b b' -> ssim (SWhile c b) (SWhile c' b').
  Proof.
    intros Hc Hb fuel. induction fuel as [|n IHn]; intros ev st st' H; [exact I|].
    rewrite !exec_while_S. apply osim_eval; [exact Hc|exact H|intro x].
    destruct (truthy x); [|apply osim_ret; exact H].
    apply osim_bind; [apply Hb; exact H|exact IHn].
  Qed.
End Sim.

Lemma osim_eq x y : osim eq x y -> x = y.
Proof.
  destruct x as [[e n f]|], y as [[e' n' f']|]; cbn; intro H; try contradiction; [|reflexivity].
  destruct H as (-> & -> & ->). reflexivity.
Qed.
Lemma esim_eq_refl e : esim eq e e.
Proof. intros st st' <-. reflexivity. Qed.
Lemma ssim_eq_refl s : ssim eq s s.
Proof. intros fuel ev st st' <-. destruct (exec fuel s ev st) as [o|]; [exact (conj eq_refl (conj eq_refl eq_refl))|exact I]. Qed.

Definition rp_go (l : list mstmt) : list mstmt :=
  (fix go (l : list mstmt) : list mstmt := match l with [] => [] | SPass :: l' => go l' | s :: l' => rp_stmt s :: go l' end) l.
Lemma rp_suite_unfold nested l : rp_suite_with rp_stmt nested l = match rp_go l with [] => if nested then [SExpr (MInt 0)] else [] | k => k end.
Proof. reflexivity. Qed.
Lemma rp_go_cons s l : rp_go (s :: l) = match s with SPass => rp_go l | _ => rp_stmt s :: rp_go l end.
Proof. reflexivity. Qed.

Lemma rp_go_sim l : Forall (fun s => ssim eq s (rp_stmt s)) l -> lsim eq l (rp_go l).
Proof.
  induction 1 as [|s l Hs _ IH]; [apply lsim_nil|]. rewrite rp_go_cons.
  (* a `pass` on the left runs to nothing: seq_with steps over it by computation *)
  destruct s; [exact IH|apply lsim_cons; [exact Hs|exact IH] ..].
Qed.
Lemma rp_suite_sim nested l : Forall (fun s => ssim eq s (rp_stmt s)) l -> lsim eq l (rp_suite_with rp_stmt nested l).
Proof.
  intro H. apply rp_go_sim in H. rewrite rp_suite_unfold. destruct (rp_go l); [|exact H].
  (* so does the expression statement 0 on the right *)
  destruct nested; exact H.
Qed.

Lemma rp_stmt_sound s : ssim eq s (rp_stmt s).
Proof.
  induction s as [| | | | |c t f IHt IHf|c b IHb] using mstmt_ind2; try apply ssim_eq_refl.
  - cbn [rp_stmt]. apply ssim_if; [apply esim_eq_refl|apply rp_suite_sim; exact IHt|].
    destruct f as [|s0 f]; [apply lsim_nil|apply rp_suite_sim; exact IHf].
  - cbn [rp_stmt]. apply ssim_while; [apply esim_eq_refl|apply rp_suite_sim; exact IHb].
Qed.

Section Rename.
  Variable r : var -> var.
  Hypothesis r_inj : forall a b, r a = r b -> a = b.

  (* all that the lemmas on namespaces need of injectivity *)
  Lemma eqb_ren v w : N.eqb (r v) (r w) = N.eqb v w.
  Proof.
    destruct (N.eqb_spec v w) as [->|Hn]; [apply N.eqb_refl|]. apply N.eqb_neq. intro E. exact (Hn (r_inj _ _ E)).
  Qed.
  Lemma lookup_ren st v : lookup (ren_store r st) (r v) = lookup st v.
  Proof.
    induction st as [|[w x] st IH]; [reflexivity|]. cbn [ren_store map lookup fst snd]. rewrite eqb_ren.
    destruct (N.eqb v w); [reflexivity|exact IH].
  Qed.
  Lemma remove_ren st v : remove (ren_store r st) (r v) = ren_store r (remove st v).
  Proof.
    induction st as [|[w x] st IH]; [reflexivity|]. cbn [ren_store map remove fst snd]. rewrite eqb_ren.
    destruct (N.eqb v w); [exact IH|exact (f_equal (cons _) IH)].
  Qed.
  Lemma update_ren st v x : update (ren_store r st) (r v) x = ren_store r (update st v x).
  Proof. unfold update. cbn [ren_store map fst snd]. f_equal. apply remove_ren. Qed.
  Lemma eval_ren e st : eval (ren_expr r e) (ren_store r st) = eval e st.
  Proof.
    induction e as [z|s|v|o a IHa b IHb]; try reflexivity.
    - cbn [ren_expr eval]. now rewrite lookup_ren.
    - cbn [ren_expr eval]. now rewrite IHa, IHb.
  Qed.

  Definition ren_outcome (o : outcome) : outcome := {| events := events o; ended := ended o; final := ren_store r (final o) |}.
  Definition ren_res (x : option outcome) : option outcome := option_map ren_outcome x.

  Definition ren_rel (st st' : store) : Prop := st' = ren_store r st.
  Lemma osim_ren x y : osim ren_rel x y -> y = ren_res x.
  Proof.
    destruct x as [o|], y as [[e n f]|]; unfold ren_rel; cbn; intro H; try contradiction; [|reflexivity].
    destruct H as (<- & <- & ->). reflexivity.
  Qed.
  Lemma esim_ren e : esim ren_rel e (ren_expr r e).
  Proof. intros st st' ->. apply eval_ren. Qed.

  Lemma ren_stmt_sound s : ssim ren_rel s (ren_stmt r s).
  Proof.
    induction s as [|e|v e|v|e|c t f IHt IHf|c b IHb] using mstmt_ind2; cbn [ren_stmt].
    - apply ssim_pass.
    - apply ssim_expr. apply esim_ren.
    - apply ssim_assign; [apply esim_ren|]. intros st st' x ->. apply update_ren.
    - apply ssim_del. intros st st' ->. split; [apply lookup_ren|apply remove_ren].
    - apply ssim_print. apply esim_ren.
    - apply ssim_if; [apply esim_ren|apply lsim_map; exact IHt|apply lsim_map; exact IHf].
    - apply ssim_while; [apply esim_ren|apply lsim_map; exact IHb].
  Qed.
  Theorem rename_sound fuel p : run fuel (map (ren_stmt r) p) = ren_res (run fuel p).
  Proof.
    unfold run. apply osim_ren. apply lsim_map; [|reflexivity].
    apply Forall_forall. intros s _. apply ren_stmt_sound.
  Qed.
End Rename.

Lemma Forall_guarded {A} {p : A -> bool} {P : A -> Prop} {l} :
  forallb p l = true -> Forall (fun x => p x = true -> P x) l -> Forall P l.
Proof. rewrite forallb_forall, !Forall_forall. auto. Qed.

Lemma lookup_remove st v w : lookup (remove st v) w = if N.eqb w v then None else lookup st w.
Proof.
  induction st as [|[u x] st IH]; cbn [remove lookup]; [destruct (N.eqb w v); reflexivity|].
  destruct (N.eqb_spec v u) as [->|Hvu].
  - rewrite IH. destruct (N.eqb_spec w u); reflexivity.
  - cbn [lookup]. rewrite IH. destruct (N.eqb_spec w u) as [->|Hwu]; [|reflexivity].
    destruct (N.eqb_spec u v); [congruence|reflexivity].
Qed.
Lemma lookup_update st v x w : lookup (update st v x) w = if N.eqb w v then Some x else lookup st w.
Proof. unfold update. cbn [lookup]. rewrite lookup_remove. destruct (N.eqb w v); reflexivity. Qed.

Section Hoist.
  Variable A : var.
  Variable s : N.
  (* the namespace with the alias: everything as before, plus A bound to the literal *)
  Definition aliased (st st' : store) : Prop := forall v, lookup st' v = if N.eqb v A then Some (VStr s) else lookup st v.

  Lemma aliased_update st st' v x : aliased st st' -> N.eqb v A = false -> aliased (update st v x) (update st' v x).
  Proof.
    intros H Hv w. rewrite !lookup_update. destruct (N.eqb_spec w v) as [->|Hn]; [now rewrite Hv|]. apply H.
  Qed.
  Lemma aliased_remove st st' v : aliased st st' -> N.eqb v A = false -> aliased (remove st v) (remove st' v).
  Proof.
    intros H Hv w. rewrite !lookup_remove. destruct (N.eqb_spec w v) as [->|Hn]; [now rewrite Hv|]. apply H.
  Qed.
  Lemma esim_sub e : fresh_expr A e = true -> esim aliased e (sub_expr A s e).
  Proof.
    intros Hf st st' H. induction e as [z|t|v|o a IHa b IHb]; cbn [sub_expr eval fresh_expr] in *.
    - reflexivity.
    - destruct (N.eqb_spec t s) as [->|Hn]; [|reflexivity]. cbn [eval]. rewrite H, N.eqb_refl. reflexivity.
    - rewrite H. apply negb_true_iff in Hf. now rewrite Hf.
    - apply andb_true_iff in Hf as [Ha Hb]. now rewrite (IHa Ha), (IHb Hb).
  Qed.
  Definition orel (x y : option outcome) : Prop :=
    match x, y with
    | Some o, Some o' => events o = events o' /\ ended o = ended o' /\ aliased (final o) (final o')
    | None, None => True
    | _, _ => False
    end.
  Lemma sub_stmt_sound st0 : fresh_stmt A st0 = true -> ssim aliased st0 (sub_stmt A s st0).
  Proof.
    induction st0 as [|e|v e|v|e|c t f IHt IHf|c b IHb] using mstmt_ind2; intro Hfr; cbn [fresh_stmt sub_stmt] in *.
    - apply ssim_pass.
    - apply ssim_expr. apply esim_sub. exact Hfr.
    - apply andb_true_iff in Hfr as [Hv He]. apply negb_true_iff in Hv. apply ssim_assign; [apply esim_sub; exact He|].
      intros st st' x H. apply aliased_update; [exact H|exact Hv].
    - apply negb_true_iff in Hfr. apply ssim_del. intros st st' H.
      split; [rewrite (H v), Hfr; reflexivity|apply aliased_remove; [exact H|exact Hfr]].
    - apply ssim_print. apply esim_sub. exact Hfr.
    - apply andb_true_iff in Hfr as [Hfr Hff]. apply andb_true_iff in Hfr as [Hc Hft].
      apply ssim_if; [apply esim_sub; exact Hc| |].
      + apply lsim_map. exact (Forall_guarded Hft IHt).
      + apply lsim_map. exact (Forall_guarded Hff IHf).
    - apply andb_true_iff in Hfr as [Hc Hfb].
      apply ssim_while; [apply esim_sub; exact Hc|apply lsim_map; exact (Forall_guarded Hfb IHb)].
  Qed.

  Theorem hoist_sound fuel p : forallb (fresh_stmt A) p = true -> orel (run fuel p) (run fuel (hoist A s p)).
  Proof.
    intro Hfr. unfold run, hoist. rewrite seq_cons. cbn [exec eval obind ended events final].
    apply (lsim_map aliased (sub_stmt A s) p).
    - apply (Forall_guarded Hfr). apply Forall_forall. intros a _. apply sub_stmt_sound.
    - (* the start: the empty namespace against the one holding the alias alone *)
      intro v. reflexivity.
  Qed.
End Hoist.
