(* The names name_generator() yields, for ANY two alphabets: [c] for c in `first`, then [c; d] for c in `first` and d in
   `rest`.  Gen/NameGen.v instantiates the alphabets; the facts about them that the argument needs are evaluated where
   the theorems are stated (Properties/C03.v). *)
From Coq Require Import FinFun.
From PM Require Import Model.Base.

Lemma NoDup_app {A} (l l' : list A) : NoDup l -> NoDup l' -> (forall x, In x l -> ~ In x l') -> NoDup (l ++ l').
Proof.
  intros Hl Hl' Hd. induction Hl as [|x l Hx _ IH]; [exact Hl'|]. constructor.
  - intro H. apply in_app_or in H as [H|H]; [exact (Hx H) | exact (Hd x (or_introl eq_refl) H)].
  - apply IH. intros y Hy. apply Hd. now right.
Qed.
Lemma NoDup_flat_map {A B} (f : A -> list B) l :
  NoDup l -> (forall x, NoDup (f x)) -> (forall x y z, In z (f x) -> In z (f y) -> x = y) -> NoDup (flat_map f l).
Proof.
  intros Hl Hf Hd. induction Hl as [|x l Hx _ IH]; [constructor|]. apply NoDup_app; [apply Hf | exact IH |].
  intros z Hz H. apply in_flat_map in H as (y & Hy & Hzy). rewrite (Hd x y z Hz Hzy) in Hx. exact (Hx Hy).
Qed.
(* a list without repetitions, by evaluation: removing repetitions leaves it as it is *)
Lemma NoDup_N (l : list N) : nodup N.eq_dec l = l -> NoDup l.
Proof. intros <-. apply NoDup_nodup. Qed.

(* what holds of a list holds of what a filter keeps of it, together with the filter's test.  C03_generated_names_valid
   goes through this and never opens the filter: on the concrete tables the kernel would evaluate the 3328 names under
   `In` at Qed. *)
Lemma forallb_filter {A} (p keep : A -> bool) l : forallb p l = true -> forallb (fun x => p x && keep x) (filter keep l) = true.
Proof. rewrite !forallb_forall. intros H x Hx. apply filter_In in Hx as [Hx ->]. now rewrite (H x Hx). Qed.

Section Stream.
  Variables first rest : list N.
  Definition stream : list text := map (fun c => [c]) first ++ flat_map (fun c => map (fun d => [c; d]) rest) first.

  (* the constructors are injective, and a one-character name is no two-character name *)
  Lemma stream_distinct : NoDup first -> NoDup rest -> NoDup stream.
  Proof.
    intros Hf Hr. apply NoDup_app.
    - apply Injective_map_NoDup; [|exact Hf]. now intros x y [= ->].
    - apply NoDup_flat_map; [exact Hf | |].
      + intro c. apply Injective_map_NoDup; [|exact Hr]. now intros x y [= ->].
      + intros c c' z Hz Hz'. apply in_map_iff in Hz as (d & <- & _). now apply in_map_iff in Hz' as (d' & [= -> _] & _).
    - intros x Hx Hx'. apply in_map_iff in Hx as (c & <- & _). apply in_flat_map in Hx' as (c' & _ & Hx').
      now apply in_map_iff in Hx' as (d & [=] & _).
  Qed.

  Lemma stream_shape (P Q : N -> bool) : forallb P first = true -> forallb Q rest = true ->
    forallb (fun n => match n with c :: r => P c && forallb Q r | [] => false end) stream = true.
  Proof.
    intros Hf Hr. rewrite forallb_forall in *. intros n Hn. apply in_app_or in Hn as [Hn|Hn].
    - apply in_map_iff in Hn as (c & <- & Hc). now rewrite (Hf c Hc).
    - apply in_flat_map in Hn as (c & Hc & Hn). apply in_map_iff in Hn as (d & <- & Hd). cbn [forallb]. now rewrite (Hf c Hc), (Hr d Hd).
  Qed.
End Stream.
