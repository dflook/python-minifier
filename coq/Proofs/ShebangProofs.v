From PM Require Import Model.PipelineBase Model.Shebang.

(* a regex  l1 … ln c*  (unstarred atoms, then one starred atom) matches the atoms one by one and then the longest
   run of c: no backtracking happens, so the fuel drops out *)
Definition unstarred (pre : list ratom) : regex := map (fun a => (a, false)) pre.
Fixpoint match_run (pre : list ratom) (cls : ratom) (s : text) : option text :=
  match pre, s with
  | [], _ => Some (takewhile (atom_matches cls) s)
  | a :: pre', c :: s' => if atom_matches a c then option_map (cons c) (match_run pre' cls s') else None
  | _ :: _, [] => None
  end.

(* fuel: one unit per atom of pre, one per character of the run, one to leave the star, one for the empty rest *)
Lemma rmatch_run pre cls s fuel :
  length s + length pre + 1 < fuel -> rmatch fuel (unstarred pre ++ [(cls, true)]) s = match_run pre cls s.
Proof.
  revert pre s. induction fuel as [|fuel IH]; intros pre s Hf; [lia|].
  assert (Hnil : forall s', rmatch fuel [] s' = Some []) by (destruct fuel; [lia|reflexivity]).
  destruct pre as [|a pre], s as [|c s]; cbn [unstarred map app rmatch match_run takewhile length] in *; auto.
  - destruct (atom_matches cls c); [|apply Hnil].
    specialize (IH [] s). cbn [unstarred map app match_run length] in IH. now rewrite IH by lia.
  - fold (unstarred pre). now rewrite IH by lia.
Qed.

Lemma re_match_run pre cls r s : r = unstarred pre ++ [(cls, true)] -> re_match r s = match_run pre cls s.
Proof. intros ->. apply rmatch_run. unfold unstarred. rewrite app_length, map_length. cbn [length]. lia. Qed.

Lemma utf8_cp_cases c :
  (c < 128)%N /\ utf8_cp c = [c] \/
  (128 <= c)%N /\ exists b bs, utf8_cp c = b :: bs /\ Forall (fun b => 128 <= b)%N (b :: bs).
Proof.
  unfold utf8_cp. destruct (N.ltb_spec c 128); [auto|right; split; [assumption|]].
  (* every byte of a longer encoding is written k + _ with 128 <= k *)
  destruct (c <? 2048)%N; [|destruct (c <? 65536)%N]; do 2 eexists; repeat constructor;
    (eapply N.le_trans; [|apply N.le_add_r]); easy.
Qed.

Lemma takewhile_app_all {A} (p : A -> bool) l r : Forall (fun x => p x = true) l -> takewhile p (l ++ r) = l ++ takewhile p r.
Proof. induction 1 as [|x l Hx _ IH]; cbn [app takewhile]; [reflexivity|]. now rewrite Hx, IH. Qed.

(* atoms whose verdict on a UTF-8 byte sequence is that on the code point: those that reject, resp. accept,
   everything from 128 up *)
Definition ascii_only (a : ratom) : Prop := forall b, (128 <= b)%N -> atom_matches a b = false.
Definition beyond_ascii (a : ratom) : Prop := forall b, (128 <= b)%N -> atom_matches a b = true.

Lemma takewhile_utf8 a s : beyond_ascii a ->
  takewhile (atom_matches a) (utf8 s) = utf8 (takewhile (atom_matches a) s).
Proof.
  intro Ha. unfold utf8. induction s as [|c s IH]; [reflexivity|]. cbn [flat_map takewhile].
  destruct (utf8_cp_cases c) as [[_ E]|[Hc (b & bs & E & Hb)]].
  - rewrite E. cbn [app takewhile]. destruct (atom_matches a c); [|reflexivity]. cbn [flat_map]. now rewrite E, IH.
  - rewrite (Ha c Hc). cbn [flat_map]. rewrite E, takewhile_app_all, IH; [reflexivity|].
    exact (Forall_impl _ Ha Hb).
Qed.

Theorem match_run_utf8 pre cls s : Forall ascii_only pre -> beyond_ascii cls ->
  match_run pre cls (utf8 s) = option_map utf8 (match_run pre cls s).
Proof.
  intros Hpre Hcls. revert s. induction Hpre as [|a pre Ha _ IH]; intro s.
  - cbn [match_run option_map]. now rewrite takewhile_utf8.
  - destruct s as [|c s]; [reflexivity|]. unfold utf8. cbn [flat_map].
    destruct (utf8_cp_cases c) as [[_ E]|[Hc (b & bs & E & Hb)]]; rewrite E; cbn [app match_run].
    + destruct (atom_matches a c); [|reflexivity]. rewrite IH. destruct (match_run pre cls s); [|reflexivity].
      cbn [option_map]. cbn [flat_map]. now rewrite E.
    + rewrite (Ha c Hc). inversion Hb as [|? ? Hb1 _]. now rewrite (Ha b Hb1).
Qed.

Lemma ascii_only_lit x : (x < 128)%N -> ascii_only (RLit x).
Proof. intros Hx b Hb. cbn [atom_matches]. destruct (N.eqb_spec b x); [lia|reflexivity]. Qed.
Lemma beyond_ascii_notin cs : Forall (fun x => x < 128)%N cs -> beyond_ascii (RNotIn cs).
Proof.
  intros Hcs b Hb. cbn [atom_matches]. induction Hcs as [|x cs Hx _ IH]; [reflexivity|]. cbn [existsb].
  destruct (N.eqb_spec b x); [lia|exact IH].
Qed.

Theorem re_match_utf8 pre cls r s :
  r = unstarred pre ++ [(cls, true)] -> Forall ascii_only pre -> beyond_ascii cls ->
  re_match r (utf8 s) = option_map utf8 (re_match r s).
Proof. intros Hr Hpre Hcls. rewrite !(re_match_run pre cls r) by exact Hr. now apply match_run_utf8. Qed.

Lemma takewhile_ext {A} (p q : A -> bool) l : (forall x, p x = q x) -> takewhile p l = takewhile q l.
Proof. intro H. induction l as [|x l IH]; cbn; [reflexivity|]. rewrite H, IH. reflexivity. Qed.

Lemma find_shebang_text_spec s :
  find_shebang_text s = if starts_shebang s then Some (first_line s) else None.
Proof.
  unfold find_shebang_text, first_line. erewrite re_match_run with (pre := [_; _]) by reflexivity.
  (* the starred class is "not an end of line"; "#" and "!" belong to it, the rest is computation *)
  rewrite (takewhile_ext _ (atom_matches (RNotIn [13; 10]%N)) s)
    by (intro c; unfold is_eol; cbn [atom_matches existsb]; destruct (N.eqb c 13), (N.eqb c 10); reflexivity).
  destruct s as [|c [|d rest]]; cbn [match_run starts_shebang atom_matches]; [reflexivity|destruct (N.eqb c 35); reflexivity|].
  destruct (N.eqb_spec c 35) as [->|]; [|reflexivity]. destruct (N.eqb_spec d 33) as [->|]; reflexivity.
Qed.
