From PM Require Import Model.Base Model.Struct Model.ControlFlow.

(* sequencing: continue with k when x completed normally, concatenating traces; a Ret or None passes through *)
Definition andthen (x : option result) (k : list bool -> option result) : option result :=
  match x with
  | Some (t, Normal, o') => match k o' with Some (t', c, o'') => Some (t ++ t', c, o'') | None => None end
  | Some (t, Ret v, o') => Some (t, Ret v, o')
  | None => None
  end.
(* try/finally: k runs in every case; the outcome of x stands unless k returns *)
Definition finally (x : option result) (k : list bool -> option result) : option result :=
  match x with
  | Some (t, c, o1) =>
      match k o1 with
      | Some (t', Normal, o2) => Some (t ++ t', c, o2)
      | Some (t', Ret w, o2) => Some (t ++ t', Ret w, o2)
      | None => None
      end
  | None => None
  end.

Lemma run_S f o l : run (S f) o l =
  match l with
  | [] => Some ([], Normal, o)
  | s :: l' => andthen (step f o s) (fun o' => run f o' l')
  end.
Proof. reflexivity. Qed.

Lemma step_S f o s : step (S f) o s =
  match s with
  | Simple k => Some (fst (simple_step k), snd (simple_step k), o)
  | Block (BIf _) m op _ => match o with b :: o' => run f o' (if b then first_suite m else first_suite op) | [] => None end
  | Block (BLoop _) m op _ =>
      match o with
      | true :: o' => andthen (run f o' (first_suite m)) (fun o'' => step f o'' s)
      | false :: o' => run f o' (first_suite op)
      | [] => None
      end
  | Block (BWith _ | BClass _ _) m _ _ => run f o (first_suite m)
  | Block BTry m op _ =>
      finally (andthen (run f o (first_suite m)) (fun o1 => run f o1 (first_suite op))) (fun o1 => run f o1 (second_suite op))
  | Block (BFunc id) _ _ _ => Some ([id], Normal, o)
  | Block (BUnhooked _) m op u =>
      match o with
      | b :: o' => run f o' (if b then first_suite (m ++ op ++ u) else second_suite (m ++ op ++ u))
      | [] => None
      end
  end.
Proof.
  destruct s as [k|[] m op u]; try reflexivity.
  cbn [step]. unfold finally, andthen.
  destruct (run f o (first_suite m)) as [[[t []] o1]|]; try reflexivity.
  destruct (run f o1 (first_suite op)) as [[[t' c'] o2]|]; reflexivity.
Qed.

(* the definedness order on results: None is a run that ran out of fuel *)
Definition le_res {A} (x y : option A) : Prop := x = None \/ x = y.

Lemma le_res_refl {A} (x : option A) : le_res x x.
Proof. right. reflexivity. Qed.
Lemma le_res_none {A} (y : option A) : le_res None y.
Proof. left. reflexivity. Qed.
Lemma le_res_trans {A} {x y z : option A} : le_res x y -> le_res y z -> le_res x z.
Proof. intros [->| ->] H; [apply le_res_none|exact H]. Qed.
Lemma le_res_some {A} (x y : option A) r : le_res x y -> x = Some r -> y = Some r.
Proof. intros [->| <-] H; [discriminate H|exact H]. Qed.

Lemma andthen_le x x' k k' : le_res x x' -> (forall o, le_res (k o) (k' o)) -> le_res (andthen x k) (andthen x' k').
Proof.
  intros [->| <-] Hk; [apply le_res_none|]. destruct x as [[[t []] o]|]; try apply le_res_refl.
  cbn. destruct (Hk o) as [->| <-]; [apply le_res_none|apply le_res_refl].
Qed.
Lemma finally_le x x' k k' : le_res x x' -> (forall o, le_res (k o) (k' o)) -> le_res (finally x k) (finally x' k').
Proof.
  intros [->| <-] Hk; [apply le_res_none|]. destruct x as [[[t c] o]|]; [|apply le_res_refl].
  cbn. destruct (Hk o) as [->| <-]; [apply le_res_none|apply le_res_refl].
Qed.
Lemma andthen_ext x x' k k' : x = x' -> (forall o, k o = k' o) -> andthen x k = andthen x' k'.
Proof. intros <- Hk. destruct x as [[[t []] o]|]; cbn; rewrite ?Hk; reflexivity. Qed.
Lemma finally_ext x x' k k' : x = x' -> (forall o, k o = k' o) -> finally x k = finally x' k'.
Proof. intros <- Hk. destruct x as [[[t c] o]|]; cbn; rewrite ?Hk; reflexivity. Qed.

Lemma mono : forall f,
  (forall o l, le_res (run f o l) (run (S f) o l)) /\ (forall o s, le_res (step f o s) (step (S f) o s)).
Proof.
  induction f as [|f [IHr IHs]]; [split; intros; apply le_res_none|]. split.
  - intros o l. rewrite (run_S f), (run_S (S f)). destruct l as [|s l']; [apply le_res_refl|].
    apply andthen_le; [apply IHs|intro; apply IHr].
  - intros o s. rewrite (step_S f), (step_S (S f)). destruct s as [k|[t|id|id| |id|id bases|id] m op u].
    + apply le_res_refl.
    + (* if *) destruct o as [|b o']; [apply le_res_refl|apply IHr].
    + (* loop *) destruct o as [|[|] o']; [apply le_res_refl| |apply IHr].
      apply andthen_le; [apply IHr|intro; apply IHs].
    + (* with *) apply IHr.
    + (* try *) apply finally_le; [apply andthen_le|]; intros; apply IHr.
    + (* def *) apply le_res_refl.
    + (* class *) apply IHr.
    + (* unhooked *) destruct o as [|b o']; [apply le_res_refl|apply IHr].
Qed.

Lemma first_suite_map (T : stmt -> stmt) x : first_suite (map (map T) x) = map T (first_suite x).
Proof. destruct x; reflexivity. Qed.
Lemma second_suite_map (T : stmt -> stmt) x : second_suite (map (map T) x) = map T (second_suite x).
Proof. destruct x as [|a [|b x]]; reflexivity. Qed.

Lemma simple_step_ret k : simple_step (match k with KReturn RNoneConst => KReturn RBare | _ => k end) = simple_step k.
Proof. destruct k as [| | |[]| | |]; reflexivity. Qed.

Lemma ret_visit_runs : forall f,
  (forall o l, run f o (map ret_visit l) = run f o l) /\ (forall o s, step f o (ret_visit s) = step f o s).
Proof.
  induction f as [|f [IHr IHs]]; [split; reflexivity|]. split.
  - intros o l. destruct l as [|s l']; [reflexivity|]. cbn [map]. rewrite !run_S.
    apply andthen_ext; [apply IHs|intro; apply IHr].
  - intros o s. rewrite !step_S.
    destruct s as [k|[t|id|id| |id|id bases|id] m op u]; cbn [ret_visit].
    + destruct k as [| | |[| |id]| | |]; reflexivity.
    + (* if *) destruct o as [|b o']; [reflexivity|]. rewrite !first_suite_map. destruct b; apply IHr.
    + (* loop *) destruct o as [|[|] o']; [reflexivity| |rewrite first_suite_map; apply IHr].
      rewrite first_suite_map. apply andthen_ext; [apply IHr|intro o''; apply (IHs o'' (Block (BLoop id) m op u))].
    + (* with *) rewrite first_suite_map. apply IHr.
    + (* try *) rewrite !first_suite_map, second_suite_map. apply finally_ext; [apply andthen_ext|]; intros; apply IHr.
    + (* def *) reflexivity.
    + (* class *) rewrite first_suite_map. apply IHr.
    + (* unhooked *) destruct o as [|b o']; [reflexivity|]. rewrite <- !map_app, first_suite_map, second_suite_map. destruct b; apply IHr.
Qed.

(* a call runs down the body as `run` does; the caller is told the value, not how control left the body *)
Definition after (t : list N) (x : option (list N * option N * list bool)) :=
  match x with Some (t', v, o) => Some (t ++ t', v, o) | None => None end.
Lemma call_cons f o s l : call (S f) o (s :: l) =
  match step f o s with
  | Some (t, Normal, o') => after t (call f o' l)
  | Some (t, Ret v, o') => Some (t, v, o')
  | None => None
  end.
Proof.
  unfold call. rewrite run_S. destruct (step f o s) as [[[t []] o']|]; try reflexivity.
  cbn. destruct (run f o' l) as [[[t' []] o'']|]; reflexivity.
Qed.
Lemma after_le t x y : le_res x y -> le_res (after t x) (after t y).
Proof. intros [->| <-]; [apply le_res_none|apply le_res_refl]. Qed.

Lemma call_mono f o l : le_res (call f o l) (call (S f) o l).
Proof. unfold call. destruct (proj1 (mono f) o l) as [->| <-]; [apply le_res_none|apply le_res_refl]. Qed.
Lemma call_ret_visit f o l : call f o (map ret_visit l) = call f o l.
Proof. unfold call. rewrite (proj1 (ret_visit_runs f)). reflexivity. Qed.

Lemma call_zero f o : call (S (S f)) o [zero_stmt] = Some ([], None, o).
Proof. reflexivity. Qed.
Lemma call_nil f o : call (S f) o [] = Some ([], None, o).
Proof. reflexivity. Qed.

Lemma strip_cons s l :
  s = Simple (KReturn RBare) /\ l = [] \/ strip_last_bare_return (s :: l) = s :: strip_last_bare_return l.
Proof. destruct s as [[| | |[| |id]| | |]|]; destruct l; auto. Qed.

Lemma strip_call : forall l f o,
  le_res (call f o l) (call f o (strip_last_bare_return l)) /\ le_res (call f o (strip_last_bare_return l)) (call (S f) o l).
Proof.
  induction l as [|s l IH]; intros f o; [split; [apply le_res_refl|apply call_mono]|].
  destruct (strip_cons s l) as [[-> ->]| ->].
  - (* what is left of the body is the bare return alone: fuel 2 with it, fuel 1 without *)
    destruct f as [|[|f]]; split; try apply le_res_none; apply le_res_refl.
  - destruct f as [|f]; [split; apply le_res_none|]. rewrite !call_cons.
    (* if s does not run out of fuel at f it takes the same step at S f; what follows it is the induction hypothesis *)
    destruct (proj2 (mono f) o s) as [->| <-]; [split; apply le_res_none|].
    destruct (step f o s) as [[[t []] o']|]; [|split; apply le_res_refl ..].
    split; apply after_le, IH.
Qed.

Definition fill (l : list stmt) : list stmt := match l with [] => [zero_stmt] | s :: l' => s :: l' end.
Lemma fill_fwd l f o : le_res (call f o l) (call (S f) o (fill l)).
Proof. destruct l; [|apply call_mono]. destruct f; [apply le_res_none|apply le_res_refl]. Qed.
Lemma fill_bwd l f o : le_res (call f o (fill l)) (call f o l).
Proof. destruct l; [|apply le_res_refl]. destruct f as [|[|f]]; try apply le_res_none. apply le_res_refl. Qed.

Lemma ret_body_call body f o :
  le_res (call f o body) (call (S f) o (ret_body body)) /\ le_res (call f o (ret_body body)) (call (S f) o body).
Proof.
  change (ret_body body) with (fill (strip_last_bare_return (map ret_visit body))).
  rewrite <- (call_ret_visit f o body), <- (call_ret_visit (S f) o body).
  destruct (strip_call (map ret_visit body) f o) as [H1 H2]. split.
  - exact (le_res_trans H1 (fill_fwd _ f o)).
  - exact (le_res_trans (fill_bwd _ f o) H2).
Qed.
Theorem ret_body_call_fwd body f o r : call f o body = Some r -> call (S f) o (ret_body body) = Some r.
Proof. apply le_res_some, ret_body_call. Qed.
(* ret_body_call gives this at S f; the form C01 and C05 state has one unit more *)
Theorem ret_body_call_bwd body f o r : call f o (ret_body body) = Some r -> call (S (S f)) o body = Some r.
Proof. apply le_res_some. exact (le_res_trans (proj2 (ret_body_call body f o)) (call_mono _ o body)). Qed.

Example ret_body_example :
  let body := [Simple (KOther 1); Block (BIf (TOther 9)) [[Simple (KReturn RNoneConst)]] [[Simple (KOther 2); Simple (KReturn RBare)]] []; Simple (KReturn RBare)]%N in
  ret_body body = [Simple (KOther 1); Block (BIf (TOther 9)) [[Simple (KReturn RBare)]] [[Simple (KOther 2); Simple (KReturn RBare)]] []]%N /\
  call 10 [false] body = Some ([1; 2]%N, None, []) /\ call 10 [false] (ret_body body) = Some ([1; 2]%N, None, []).
Proof. vm_compute. repeat split. Qed.
