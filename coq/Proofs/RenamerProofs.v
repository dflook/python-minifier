From Coq Require Import Permutation.
From PM Require Import Model.Base Model.Renamer.
Open Scope bool_scope.

Lemma names_in_In a sc n : In n (names_in a sc) <-> exists s, In (s, n) a /\ In s sc.
Proof.
  unfold names_in. rewrite in_map_iff. split.
  - intros ([s n'] & <- & Hf). apply filter_In in Hf as [Ha He]. apply existsb_exists in He as (s' & Hs' & <-%N.eqb_eq). eauto.
  - intros (s & Ha & Hs). exists (s, n). rewrite filter_In, existsb_exists. eauto using N.eqb_refl.
Qed.
Lemma reserve_In n sc a p : In p (reserve n sc a) <-> (exists s, (s, n) = p /\ In s sc) \/ In p a.
Proof. unfold reserve. now rewrite in_app_iff, in_map_iff. Qed.
Lemma available_spec n sc a : available n sc a = true -> ~ In n (names_in a sc).
Proof. intros H Hin. apply negb_true_iff in H. apply mem_text_In in Hin. congruence. Qed.
Lemma opt_text_eqb_eq a b : opt_text_eqb a b = true <-> a = b.
Proof.
  destruct a, b; split; try discriminate; try reflexivity.
  - now intros ->%text_eqb_eq.
  - intros [= ->]. apply text_eqb_refl.
Qed.

(* a binding is pinned when it keeps its original name whatever happens and that name is reserved from the start *)
Definition pinned (b : binding) (n : text) : Prop := b_name b = Some n /\ b_reserved b = Some n.
(* well-formed table entry: a binding that may not be renamed has reserved its own name (NameBinding.disallow_rename
   does this), and a literal has no name before it is hoisted.  Checked on every table by the correspondence leg. *)
Definition wf_binding (b : binding) : Prop :=
  (b_allow b = false -> forall n, b_name b = Some n -> b_reserved b = Some n) /\
  (is_name_binding b = false -> b_name b = None).
Definition wf_bindingb (b : binding) : bool :=
  (b_allow b || match b_name b with Some n => opt_text_eqb (b_reserved b) (Some n) | None => true end) &&
  (is_name_binding b || match b_name b with None => true | Some _ => false end).
Lemma wf_bindingb_spec b : wf_bindingb b = true -> wf_binding b.
Proof.
  unfold wf_bindingb. intro H. apply andb_true_iff in H as [H1 H2]. split.
  - intros Ha n Hn. rewrite Ha, Hn in H1. now apply opt_text_eqb_eq in H1.
  - intros Hk. rewrite Hk in H2. destruct (b_name b); [discriminate|reflexivity].
Qed.

(* without loss of generality x stands before y: a symmetric P holds of any two different members of l once it holds
   of any two in list order *)
Lemma in_ordered {A} (P : A -> A -> Prop) l :
  (forall x y, P x y -> P y x) -> (forall l1 x l2 y l3, l = l1 ++ x :: l2 ++ y :: l3 -> P x y) ->
  forall x y, In x l -> In y l -> x <> y -> P x y.
Proof.
  intros Hsym Hord x y Hx Hy Hne. apply in_split in Hx as (l1 & l3 & ->).
  apply in_app_or in Hy as [Hy|[Hy|Hy]]; [|contradiction|]; apply in_split in Hy as (m1 & m2 & ->).
  - apply Hsym, (Hord m1 y m2 x l3). now rewrite <- app_assoc.
  - now apply (Hord l1 x m1 y m2).
Qed.

Lemma insert_desc_perm x l : Permutation (insert_desc x l) (x :: l).
Proof.
  induction l as [|y l IH]; cbn [insert_desc]; [reflexivity|]. destruct (N.leb _ _); [reflexivity|].
  rewrite IH. apply perm_swap.
Qed.
Lemma sort_desc_perm l : Permutation (sort_desc l) l.
Proof. induction l as [|x l IH]; [reflexivity|]. cbn [sort_desc fold_right]. rewrite insert_desc_perm. now constructor. Qed.
Lemma sort_desc_in l y : In y (sort_desc l) <-> In y l.
Proof. split; apply Permutation_in; [|symmetry]; apply sort_desc_perm. Qed.
Lemma sort_desc_nodup l : NoDup (map b_id l) -> NoDup (map b_id (sort_desc l)).
Proof. apply Permutation_NoDup. symmetry. apply Permutation_map, sort_desc_perm. Qed.
Lemma sort_desc_wf l : Forall wf_binding l -> Forall wf_binding (sort_desc l).
Proof. apply Permutation_Forall. symmetry. apply sort_desc_perm. Qed.

Section Proofs.
  Variable pick : bool -> list text -> text.
  Variable should : binding -> text -> bool.
  Variable prefix_globals : bool.
  Hypothesis pick_fresh : forall p l, ~ In (pick p l) l.

  Notation decide := (decide pick should prefix_globals).
  Notation run := (run pick should prefix_globals).

  (* the two possible results of decide: the generated name, or the binding's own name; the latter for a renameable
     name binding only when the name is its own reservation or is free in its scope *)
  Lemma decide_cases b a :
    decide b a = Some (pick (b_module b && prefix_globals) (names_in a (b_scope b))) \/
    decide b a = b_name b /\
      (b_allow b = true -> is_name_binding b = true ->
       forall o, b_name b = Some o -> b_reserved b = Some o \/ ~ In o (names_in a (b_scope b))).
  Proof.
    unfold Renamer.decide. destruct (b_allow b); [|right; split; [reflexivity|discriminate]].
    destruct (should b _); [now left|].
    destruct (is_name_binding b); [|right; split; [reflexivity|discriminate]].
    destruct (b_name b) as [orig|]; [|now left].
    destruct (opt_text_eqb _ _) eqn:Er.
    - right. split; [reflexivity|]. intros _ _ o [= <-]. left. now apply opt_text_eqb_eq.
    - destruct (available orig _ a) eqn:Eav; [|now left].
      right. split; [reflexivity|]. intros _ _ o [= <-]. right. now apply available_spec.
  Qed.
  Lemma decide_not_allowed b a : b_allow b = false -> decide b a = b_name b.
  Proof. unfold Renamer.decide. now intros ->. Qed.

  Lemma decide_changed_is_fresh b a n :
    decide b a = Some n -> b_name b <> Some n -> ~ In n (names_in a (b_scope b)).
  Proof.
    intros Hd Hne. destruct (decide_cases b a) as [Hc|[Hk _]]; [|congruence].
    rewrite Hd in Hc. injection Hc as ->. apply pick_fresh.
  Qed.
  Lemma decide_avoids b a s n :
    wf_binding b -> In s (b_scope b) -> In (s, n) a -> decide b a = Some n -> pinned b n.
  Proof.
    intros [Hwf1 Hwf2] Hs Ha Hd.
    assert (Hin : In n (names_in a (b_scope b))) by (apply names_in_In; eauto).
    destruct (decide_cases b a) as [Hc|[Hk Hwhy]]; rewrite Hd in *.
    - injection Hc as ->. destruct (pick_fresh _ _ Hin).
    - symmetry in Hk. split; [exact Hk|].
      destruct (b_allow b); [|now apply Hwf1].
      destruct (is_name_binding b); [|rewrite (Hwf2 eq_refl) in Hk; discriminate].
      destruct (Hwhy eq_refl eq_refl n Hk) as [Hr|Hf]; [exact Hr|contradiction].
  Qed.

  Definition step (b : binding) (a : assigned) : assigned :=
    match decide b a with Some x => reserve x (b_scope b) a | None => a end.
  (* the reservations when the bindings `pre` have been processed *)
  Definition state (pre : list binding) (a : assigned) : assigned := fold_left (fun a b => step b a) pre a.
  Lemma state_mono pre : forall a p, In p a -> In p (state pre a).
  Proof.
    induction pre as [|b pre IH]; intros a p H; [exact H|]. apply IH. unfold step.
    destruct (decide b a); [apply reserve_In; now right|exact H].
  Qed.

  Lemma state_app pre b mid a : state (pre ++ b :: mid) a = state mid (step b (state pre a)).
  Proof. unfold state. now rewrite fold_left_app. Qed.
  Lemma step_records b a n s : decide b a = Some n -> In s (b_scope b) -> In (s, n) (step b a).
  Proof. unfold step. intros -> Hs. apply reserve_In. eauto. Qed.

  Lemma run_app pre post : forall a, run (pre ++ post) a = run pre a ++ run post (state pre a).
  Proof. induction pre as [|b pre IH]; intro a; [reflexivity|]. cbn [app Renamer.run]. now rewrite IH. Qed.
  Lemma run_fst bs : forall a, map fst (run bs a) = map b_id bs.
  Proof. induction bs as [|b bs IH]; intro a; [reflexivity|]. cbn [Renamer.run map fst]. now rewrite IH. Qed.

  (* with distinct ids the result is a function of the id: the entry of a binding is what decide says in the state its
     predecessors leave.  Everything below about `run` is read off this. *)
  Lemma run_at {bs pre b post a n} :
    bs = pre ++ b :: post -> NoDup (map b_id bs) -> In (b_id b, n) (run bs a) -> decide b (state pre a) = n.
  Proof.
    intros -> Hnd H. rewrite run_app in H. apply in_app_or in H as [H|[H|H]]; [|now injection H|].
    (* b's id occurs among neither its predecessors nor its successors *)
    all: rewrite map_app in Hnd; apply NoDup_remove_2 in Hnd; destruct Hnd.
    all: apply (in_map fst) in H; rewrite run_fst in H; apply in_or_app; auto.
  Qed.

  Lemma run_total : forall bs a b, In b bs -> exists n, In (b_id b, n) (run bs a).
  Proof.
    intros bs a b Hb. apply in_split in Hb as (pre & post & ->). rewrite run_app. eexists. apply in_or_app. right. now left.
  Qed.
  Lemma run_not_allowed bs a b n : NoDup (map b_id bs) -> In b bs -> b_allow b = false -> In (b_id b, n) (run bs a) -> n = b_name b.
  Proof.
    intros Hnd Hb Ha R. apply in_split in Hb as (pre & post & E). rewrite <- (run_at E Hnd R). now apply decide_not_allowed.
  Qed.
  Lemma run_avoids bs pre b post a s n :
    Forall wf_binding bs -> NoDup (map b_id bs) -> bs = pre ++ b :: post ->
    In (s, n) (state pre a) -> In s (b_scope b) -> In (b_id b, Some n) (run bs a) -> pinned b n.
  Proof.
    intros Hwf Hnd E Ha Hs R. apply (decide_avoids b (state pre a) s n); auto.
    - rewrite Forall_forall in Hwf. apply Hwf. rewrite E. apply in_elt.
    - exact (run_at E Hnd R).
  Qed.
  Lemma run_later bs a s n b :
    Forall wf_binding bs -> NoDup (map b_id bs) -> In (s, n) a -> In b bs -> In (b_id b, Some n) (run bs a) -> In s (b_scope b) -> pinned b n.
  Proof.
    intros Hwf Hnd Ha Hb R Hs. apply in_split in Hb as (pre & post & E).
    apply (run_avoids bs pre b post a s n); auto. now apply state_mono.
  Qed.

  (* Separation when b1 is processed before b2: b1's name is recorded in s when b2's turn comes, so b2 is pinned to it;
     then it was reserved in s from the start, so b1 is pinned too. *)
  Lemma run_separates_ordered bs a pre b1 mid b2 post n s :
    Forall wf_binding bs -> NoDup (map b_id bs) ->
    (forall b r s, In b bs -> b_reserved b = Some r -> In s (b_scope b) -> In (s, r) a) ->
    bs = pre ++ b1 :: mid ++ b2 :: post ->
    In (b_id b1, Some n) (run bs a) -> In (b_id b2, Some n) (run bs a) ->
    In s (b_scope b1) -> In s (b_scope b2) -> pinned b1 n /\ pinned b2 n.
  Proof.
    intros Hwf Hnd Hinit E R1 R2 S1 S2.
    assert (H2 : In b2 bs) by (rewrite E, app_comm_cons, app_assoc; apply in_elt).
    assert (P2 : pinned b2 n).
    { apply (run_avoids bs (pre ++ b1 :: mid) b2 post a s n); auto; [now rewrite <- app_assoc|].
      rewrite state_app. apply state_mono, step_records; [|exact S1]. exact (run_at E Hnd R1). }
    split; [|exact P2]. apply (run_avoids bs pre b1 (mid ++ b2 :: post) a s n); auto.
    apply state_mono, (Hinit b2); auto. apply P2.
  Qed.

  (* separation: one of the two is processed first *)
  Theorem run_separates bs a :
    Forall wf_binding bs -> NoDup (map b_id bs) ->
    (forall b r s, In b bs -> b_reserved b = Some r -> In s (b_scope b) -> In (s, r) a) ->
    forall b1 b2 n s, In b1 bs -> In b2 bs -> b_id b1 <> b_id b2 ->
      In (b_id b1, Some n) (run bs a) -> In (b_id b2, Some n) (run bs a) ->
      In s (b_scope b1) -> In s (b_scope b2) -> pinned b1 n /\ pinned b2 n.
  Proof.
    intros Hwf Hnd Hinit b1 b2 n s H1 H2 Hne. revert n s.
    apply in_ordered with (l := bs) (x := b1) (y := b2); auto; [| |congruence].
    - intros x y H n s Rx Ry Sx Sy. apply and_comm. exact (H n s Ry Rx Sy Sx).
    - intros pre x mid y post E n s. now apply (run_separates_ordered bs a pre x mid y post).
  Qed.

  Lemma init_reserved bs rg b r s :
    In b bs -> b_reserved b = Some r -> In s (b_scope b) -> In (s, r) (init bs rg).
  Proof.
    intros Hb Hr Hs. apply in_or_app. right.
    induction bs as [|x bs IH]; [destruct Hb|]. cbn [fold_right].
    destruct Hb as [->|Hb].
    - rewrite Hr. apply reserve_In. eauto.
    - destruct (b_reserved x); [apply reserve_In|]; auto.
  Qed.
  Lemma init_globals bs rg n : In n rg -> In (0%N, n) (init bs rg).
  Proof. intro H. apply in_or_app. left. apply in_map_iff. eauto. Qed.

  Notation assign := (assign pick should prefix_globals).

  Theorem assign_separates bs rg b1 b2 n s :
    Forall wf_binding bs -> NoDup (map b_id bs) ->
    In b1 bs -> In b2 bs -> b_id b1 <> b_id b2 ->
    In (b_id b1, Some n) (assign bs rg) -> In (b_id b2, Some n) (assign bs rg) ->
    In s (b_scope b1) -> In s (b_scope b2) -> pinned b1 n /\ pinned b2 n.
  Proof.
    intros Hwf Hnd H1 H2. apply run_separates.
    - now apply sort_desc_wf.
    - now apply sort_desc_nodup.
    - intros b r s0 Hb. apply -> sort_desc_in in Hb. exact (init_reserved bs rg b r s0 Hb).
    - now apply sort_desc_in.
    - now apply sort_desc_in.
  Qed.

  Theorem assign_avoids_reserved_globals bs rg b n :
    Forall wf_binding bs -> NoDup (map b_id bs) -> In b bs -> In 0%N (b_scope b) -> In n rg ->
    In (b_id b, Some n) (assign bs rg) -> pinned b n.
  Proof.
    intros Hwf Hnd Hb Hs Hn R.
    apply (run_later (sort_desc bs) (init bs rg) 0%N); auto using sort_desc_nodup, sort_desc_wf, init_globals.
    now apply sort_desc_in.
  Qed.

  Theorem assign_not_allowed bs rg b n :
    NoDup (map b_id bs) -> In b bs -> b_allow b = false -> In (b_id b, n) (assign bs rg) -> n = b_name b.
  Proof. intros Hnd Hb. apply run_not_allowed; [now apply sort_desc_nodup | now apply sort_desc_in]. Qed.
End Proofs.

Lemma disallow_props b : b_allow (disallow b) = false /\ b_name (disallow b) = b_name b /\ b_id (disallow b) = b_id b /\ b_scope (disallow b) = b_scope b.
Proof. repeat split. Qed.
Lemma name_in_In b pl n : b_name b = Some n -> In n pl -> name_in b pl = true.
Proof. unfold name_in. intros -> H. now apply mem_text_In. Qed.
Lemma name_in_nil b : name_in b [] = false.
Proof. unfold name_in. now destruct (b_name b). Qed.
Lemma allow_locals_preserved rl pl b n :
  b_module b = false -> b_name b = Some n -> In n pl -> b_allow (allow_locals rl pl b) = false.
Proof. intros Hm Hn Hin. unfold allow_locals. now rewrite Hm, (name_in_In b pl n Hn Hin), orb_true_r. Qed.
Lemma allow_globals_preserved rg pg b n :
  b_module b = true -> b_name b = Some n -> In n pg -> b_allow (allow_globals rg pg b) = false.
Proof. intros Hm Hn Hin. unfold allow_globals. now rewrite Hm, (name_in_In b pg n Hn Hin), orb_true_r. Qed.
Lemma allow_locals_off b : b_module b = false -> b_allow (allow_locals false [] b) = false.
Proof. intro Hm. unfold allow_locals. now rewrite Hm. Qed.
Lemma allow_globals_off b : b_module b = true -> b_allow (allow_globals false [] b) = false.
Proof. intro Hm. unfold allow_globals. now rewrite Hm. Qed.
Lemma allow_locals_other rl pl b : name_in b pl = false -> allow_locals rl pl b = allow_locals rl [] b.
Proof. intro H. unfold allow_locals. now rewrite H, name_in_nil. Qed.
Lemma allow_globals_other rg pg b : name_in b pg = false -> allow_globals rg pg b = allow_globals rg [] b.
Proof. intro H. unfold allow_globals. now rewrite H, name_in_nil. Qed.
Lemma allow_locals_keeps rl pl b : b_id (allow_locals rl pl b) = b_id b /\ b_name (allow_locals rl pl b) = b_name b.
Proof. unfold allow_locals. destruct (b_module b); [auto|]. destruct (negb rl || _); auto. Qed.
Lemma allow_globals_keeps rg pg b : b_id (allow_globals rg pg b) = b_id b /\ b_name (allow_globals rg pg b) = b_name b.
Proof. unfold allow_globals. destruct (b_module b); [|auto]. destruct (negb rg || _); auto. Qed.
Lemma allow_ids rl pl rg pg b : b_id (allow_globals rg pg (allow_locals rl pl b)) = b_id b /\ b_name (allow_globals rg pg (allow_locals rl pl b)) = b_name b.
Proof. destruct (allow_globals_keeps rg pg (allow_locals rl pl b)) as [-> ->]. apply allow_locals_keeps. Qed.

Lemma assign_map_not_allowed pick should pg f bs rg b n :
  (forall x, b_id (f x) = b_id x /\ b_name (f x) = b_name x) ->
  NoDup (map b_id bs) -> In b bs -> b_allow (f b) = false ->
  In (b_id b, n) (assign pick should pg (map f bs) rg) -> n = b_name b.
Proof.
  intros Hf Hnd Hb Ha R. destruct (Hf b) as [Hi Hn]. rewrite <- Hn. rewrite <- Hi in R.
  apply (assign_not_allowed pick should pg (map f bs) rg (f b)); auto using in_map.
  rewrite map_map. erewrite map_ext; [exact Hnd|]. apply Hf.
Qed.

(* C11: the reservation scopes are Python sets; the result does not depend on the order in which they are enumerated *)
Definition aeq (a a' : assigned) : Prop := forall p, In p a <-> In p a'.
Definition seteq (sc sc' : list N) : Prop := forall s, In s sc <-> In s sc'.
Definition same_upto_scope (b b' : binding) : Prop :=
  b_id b = b_id b' /\ b_kind b = b_kind b' /\ b_name b = b_name b' /\ b_allow b = b_allow b' /\ b_reserved b = b_reserved b' /\
  b_module b = b_module b' /\ b_mentions b = b_mentions b' /\ seteq (b_scope b) (b_scope b').

Lemma names_in_equiv a a' sc sc' : aeq a a' -> seteq sc sc' -> forall n, In n (names_in a sc) <-> In n (names_in a' sc').
Proof. intros Ha Hs n. rewrite !names_in_In. setoid_rewrite (Ha _). setoid_rewrite (Hs _). reflexivity. Qed.
Lemma available_equiv n a a' sc sc' : aeq a a' -> seteq sc sc' -> available n sc a = available n sc' a'.
Proof. intros Ha Hs. unfold available. f_equal. apply eq_true_iff_eq. rewrite !mem_text_In. now apply names_in_equiv. Qed.
Lemma reserve_equiv o sc sc' a a' : aeq a a' -> seteq sc sc' ->
  aeq (match o with Some n => reserve n sc a | None => a end) (match o with Some n => reserve n sc' a' | None => a' end).
Proof.
  intros Ha Hs. destruct o as [n|]; [|exact Ha]. intro p. rewrite !reserve_In. setoid_rewrite (Ha _). setoid_rewrite (Hs _). reflexivity.
Qed.
Lemma fold_right_rel {A B} (R : A -> A -> Prop) (S : B -> B -> Prop) f z z' :
  (forall x x' y y', R x x' -> S y y' -> S (f x y) (f x' y')) -> S z z' ->
  forall l l', Forall2 R l l' -> S (fold_right f z l) (fold_right f z' l').
Proof. intros Hf Hz l l'. induction 1; cbn [fold_right]; auto. Qed.

Section OrderIndependence.
  Variable pick : bool -> list text -> text.
  Variable should : binding -> text -> bool.
  Variable prefix_globals : bool.
  (* the first generated name outside a SET of names depends on the set only; the cost model looks at the binding's identity *)
  Hypothesis pick_ext : forall p l l', (forall x, In x l <-> In x l') -> pick p l = pick p l'.
  Hypothesis should_ext : forall b b' c, b_id b = b_id b' -> should b c = should b' c.

  Lemma decide_equiv b b' a a' : same_upto_scope b b' -> aeq a a' ->
    decide pick should prefix_globals b a = decide pick should prefix_globals b' a'.
  Proof.
    intros (Hid & Hk & Hn & Hal & Hr & Hm & _ & Hs) Ha. unfold decide, is_name_binding.
    rewrite Hk, Hn, Hal, Hr, Hm, (should_ext b b' _ Hid), (pick_ext _ _ _ (names_in_equiv a a' _ _ Ha Hs)).
    destruct (b_name b'); [|reflexivity]. now rewrite (available_equiv _ a a' _ _ Ha Hs).
  Qed.
  Lemma run_equiv bs bs' : Forall2 same_upto_scope bs bs' -> forall a a', aeq a a' ->
    run pick should prefix_globals bs a = run pick should prefix_globals bs' a'.
  Proof.
    induction 1 as [|b b' bs bs' Hb _ IH]; intros a a' Ha; [reflexivity|]. cbn [run].
    rewrite (decide_equiv b b' a a' Hb Ha). f_equal; [f_equal; apply Hb|]. apply IH, reserve_equiv; [exact Ha|apply Hb].
  Qed.
  Lemma insert_desc_rel x x' l l' : same_upto_scope x x' -> Forall2 same_upto_scope l l' ->
    Forall2 same_upto_scope (insert_desc x l) (insert_desc x' l').
  Proof.
    intros Hx H. induction H as [|y y' l l' Hy Hl IH]; cbn [insert_desc]; [auto|].
    assert (b_mentions x = b_mentions x') as <- by apply Hx. assert (b_mentions y = b_mentions y') as <- by apply Hy.
    destruct (N.leb _ _); auto.
  Qed.
  Theorem assign_order_independent bs bs' rg : Forall2 same_upto_scope bs bs' ->
    assign pick should prefix_globals bs rg = assign pick should prefix_globals bs' rg.
  Proof.
    intro H. unfold assign. apply run_equiv.
    - now apply (fold_right_rel same_upto_scope (Forall2 same_upto_scope) insert_desc [] [] insert_desc_rel).
    - intro p. unfold init. rewrite !in_app_iff. apply or_iff_compat_l.
      apply (fold_right_rel same_upto_scope aeq); [|now intro|exact H].
      intros b b' a a' Hb Ha. assert (b_reserved b = b_reserved b') as <- by apply Hb. apply reserve_equiv; [exact Ha|apply Hb].
  Qed.
End OrderIndependence.
