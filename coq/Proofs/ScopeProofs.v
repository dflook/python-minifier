From Coq Require Import String.
From PM Require Import Model.Base Model.ScopeBase Gen.ResolveNames Model.Scope.
Open Scope bool_scope.

Lemma bound_below_snoc fs g : forall d B,
  bound_below (fs ++ [g]) d B =
  (if is_class (s_kind g) then bound_below fs d B else classify (bound_below fs d B) g (d + length fs)).
Proof.
  induction fs as [|f fs IH]; intros d B; cbn [app bound_below length].
  - rewrite Nat.add_0_r. reflexivity.
  - rewrite IH. replace (S d + length fs) with (d + S (length fs)) by lia. reflexivity.
Qed.

(* the clause list the proofs below are about: if the regenerated list differs, this no longer checks *)
Lemma clauses_as_modelled : get_binding_clauses = [CGlobalDecl; CNonlocalDecl; COwn; CUp] /\ nonlocal_namespace_skips_classes = true.
Proof. split; reflexivity. Qed.

(* one step of the minifier's walk on the view of block g is analyze_name on g, where B is what the walk finds further
   up; except where the walk passes over g: a class reached by get_nonlocal_namespace, or a name both bound and loaded in
   a class body (`view` lists it in nonlocal_names, so the class holds no binding for it) *)
Lemma look_step sk B g x rest :
  (is_module (s_kind g) = true -> rest = []) -> look true x rest = B x ->
  look sk x (view g :: rest) =
  if sk && is_class (s_kind g) || merged_in_class g x then B x else classify B g (length rest) x.
Proof.
  intros Hd HB. destruct clauses_as_modelled as [Hc Hs]. cbn [look]. rewrite Hc, Hs, HB.
  cbn [run_clauses view m_kind m_globals m_nonlocals m_bindings].
  unfold merged_in_class, classify, v_nonlocals. rewrite mem_text_filter, mem_text_app.
  destruct (s_kind g); cbn [is_module is_class negb andb orb]; rewrite ?andb_true_r, ?andb_false_r.
  - (* the module answers its depth where analyze_name answers 0 *)
    rewrite Hd by reflexivity. now destruct (_ && _).
  - destruct (mem_text x (s_gdecl g)), (mem_text x (s_ndecl g)), (mem_text x (s_bound g)); reflexivity.
  - destruct sk; [reflexivity|].
    destruct (mem_text x (s_gdecl g)); [rewrite andb_false_r; reflexivity|].
    destruct (mem_text x (s_ndecl g)), (mem_text x (s_loads g)), (mem_text x (s_bound g)); reflexivity.
Qed.

Definition tail_not_module (fs : list sframe) : Prop :=
  forall g, In g (tl fs) -> is_module (s_kind g) = false.

Lemma tail_not_module_prefix fs g : tail_not_module (fs ++ [g]) -> tail_not_module fs.
Proof.
  intros H h Hh. apply H. destruct fs as [|f fs]; [destruct Hh|]. apply in_or_app. left. exact Hh.
Qed.
Lemma module_outermost {fs g} : tail_not_module (fs ++ [g]) -> is_module (s_kind g) = true -> fs = [].
Proof.
  intros H Hm. destruct fs as [|f fs]; [reflexivity|]. rewrite H in Hm; [discriminate|].
  apply in_or_app. right. left. reflexivity.
Qed.
Lemma wf_chain_tail outer f : wf_chain outer f = true -> tail_not_module (outer ++ [f]).
Proof.
  unfold wf_chain, tail_not_module. destruct (outer ++ [f]) as [|m rest]; [discriminate|].
  intros H g Hg. apply andb_true_iff in H as [_ H]. rewrite forallb_forall in H.
  apply negb_true_iff, H, Hg.
Qed.

(* what the walk finds when it arrives from below = the `bound` map the symtable pass hands down *)
Lemma look_is_bound_below x : forall outer, tail_not_module outer ->
  look true x (rev (map view outer)) = bound_below outer 0 none_bound x.
Proof.
  induction outer as [|g outer IH] using rev_ind; intro Hwf; [reflexivity|].
  rewrite map_app, rev_app_distr, bound_below_snoc. cbn [map rev app].
  rewrite (look_step true (bound_below outer 0 none_bound)).
  - rewrite rev_length, map_length. unfold merged_in_class. destruct (is_class (s_kind g)); reflexivity.
  - intro Hm. now rewrite (module_outermost Hwf Hm).
  - apply IH. eapply tail_not_module_prefix, Hwf.
Qed.

Lemma min_owner_spec {outer f x} : wf_chain outer f = true ->
  min_owner x (chain_view outer f) = if merged_in_class f x then bound_below outer 0 none_bound x else ref_owner outer f x.
Proof.
  intro Hwf. apply wf_chain_tail in Hwf. unfold min_owner, chain_view, ref_owner.
  rewrite (look_step false (bound_below outer 0 none_bound)).
  - rewrite rev_length, map_length. reflexivity.
  - intro Hm. now rewrite (module_outermost Hwf Hm).
  - apply look_is_bound_below. eapply tail_not_module_prefix, Hwf.
Qed.

Theorem lookup_refines_symtable outer f x :
  wf_chain outer f = true -> merged_in_class f x = false ->
  min_owner x (chain_view outer f) = ref_owner outer f x.
Proof. intros Hwf Hm. rewrite (min_owner_spec Hwf), Hm. reflexivity. Qed.

(* the designed deviation: a name both bound and loaded in a class body is attributed to the binding the ENCLOSING code
   sees (the class-level store and the outer binding are merged into one binding, which the binder then pins) *)
Theorem class_body_merge outer f x :
  wf_chain outer f = true -> merged_in_class f x = true ->
  min_owner x (chain_view outer f) = bound_below outer 0 none_bound x /\ ref_owner outer f x = length outer.
Proof.
  intros Hwf Hm. rewrite (min_owner_spec Hwf), Hm. split; [reflexivity|].
  unfold merged_in_class in Hm. rewrite !andb_true_iff, !negb_true_iff in Hm. destruct Hm as [[[[Hc _] Hb] Hg] Hn].
  unfold ref_owner, classify. rewrite Hg, Hn, Hb. destruct (s_kind f); [discriminate Hc..|reflexivity].
Qed.

Lemma classify_le B f d x : B x <= d -> classify B f d x <= d.
Proof.
  intro H. unfold classify.
  destruct (is_module (s_kind f)), (mem_text x (s_gdecl f)), (mem_text x (s_ndecl f)), (mem_text x (s_bound f)); auto with arith.
Qed.
Lemma bound_below_le x : forall fs d B, B x <= d -> bound_below fs d B x <= d + length fs.
Proof.
  induction fs as [|g fs IH]; intros d B H; cbn [bound_below length]; [lia|].
  rewrite Nat.add_succ_r. apply (IH (S d)), le_S. destruct (is_class (s_kind g)); [exact H|apply classify_le, H].
Qed.
Lemma ref_owner_le outer f x : ref_owner outer f x <= length outer.
Proof. apply classify_le, (bound_below_le x outer 0 none_bound), le_n. Qed.

(* non-vacuity: a class inside a function inside the module; `x` is a parameter of the function, loaded and stored in the class *)
Example chain_example :
  let m := {| s_kind := KModule; s_bound := [t "x"; t "f"]; s_gdecl := []; s_ndecl := []; s_loads := [] |} in
  let fn := {| s_kind := KFunction; s_bound := [t "x"; t "C"]; s_gdecl := []; s_ndecl := []; s_loads := [t "C"] |} in
  let c := {| s_kind := KClass; s_bound := [t "x"; t "y"]; s_gdecl := []; s_ndecl := []; s_loads := [t "x"] |} in
  let g := {| s_kind := KFunction; s_bound := []; s_gdecl := []; s_ndecl := []; s_loads := [t "x"; t "y"] |} in
  wf_chain [m; fn; c] g = true /\ merged_in_class g (t "x") = false /\
  min_owner (t "x") (chain_view [m; fn; c] g) = 1 /\ ref_owner [m; fn; c] g (t "x") = 1 /\      (* the method sees the parameter, not the class attribute *)
  ref_owner [m; fn; c] g (t "y") = 0 /\                                                            (* class attributes are invisible to methods *)
  merged_in_class c (t "x") = true /\ min_owner (t "x") (chain_view [m; fn] c) = 1 /\ ref_owner [m; fn] c (t "x") = 2 /\
  min_owner (t "y") (chain_view [m; fn] c) = 2.
Proof. vm_compute. repeat split. Qed.
