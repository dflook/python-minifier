From PM Require Import Model.Base Model.MiniString Proofs.MiniStringProofs Model.FStr.
Open Scope bool_scope.
Open Scope N_scope.

Lemma is_q_quote q : is_q q <-> is_quote q. Proof. reflexivity. Qed.

Lemma hex2_inert q v : is_q q -> forallb (inert q) (hex_fixed 2 v) = true.
Proof. intro H. apply hex_fixed_inert. exact H. Qed.

Lemma esc_str_piece long q c : c <> q -> piece 1114112 long q c (esc_str c).
Proof.
  intro Hq. unfold esc_str.
  destruct (N.eqb_spec c 10) as [->|H10]; [apply P_esc; reflexivity|].
  destruct (N.eqb_spec c 13) as [->|H13]; [apply P_esc; reflexivity|].
  destruct (N.eqb_spec c 92) as [->|H92]; [apply P_esc; reflexivity|].
  destruct (N.eqb_spec c 0) as [->|H0]; [apply P_x; reflexivity|].
  destruct (surrogate c) eqn:Es; [|apply P_raw; auto].
  apply P_u. unfold surrogate in Es. lia.
Qed.
Lemma esc_bytes_piece long q c : c <> q -> piece 256 long q c (esc_bytes c).
Proof.
  intro Hq. unfold esc_bytes.
  destruct (N.eqb_spec c 92) as [->|H92]; [apply P_esc; reflexivity|].
  destruct (N.eqb_spec c 10) as [->|H10]; [apply P_esc; reflexivity|].
  destruct (N.eqb_spec c 13) as [->|H13]; [apply P_esc; reflexivity|].
  destruct ((c =? 0) || (128 <=? c)) eqn:E; [|apply P_raw; auto; lia].
  apply P_x. trivial.
Qed.

(* the allowed quotes of Python 3.12+: there always is a replacement quote, and it never starts with the character that forced the switch *)
Lemma get_quote_full c : exists q, get_quote full_quotes c = Some q /\ is_q (qc q) /\ c <> qc q.
Proof.
  unfold get_quote, full_quotes, differs. cbn [find qlong qc orb].
  destruct (N.eqb_spec c 34) as [->|H34].
  - eexists. split; [reflexivity|]. split; [left; reflexivity | discriminate].
  - eexists. split; [reflexivity|]. split; [right; reflexivity | exact H34].
Qed.
Lemma full_quotes_q q : In q full_quotes -> is_q (qc q).
Proof. unfold is_q. intros [<-|[<-|[<-|[<-|[]]]]]; auto. Qed.

(* _literals with the full quote list, whatever the escaping: it never fails, and what it returns is a literal_seq. *)
Section Lits.
  Variable pre : text.
  Variable esc : N -> text.

  Definition lit_of (q : quote) (cs : text) : text := pre ++ qtext q ++ flat_map esc cs ++ qtext q.
  Definition lit_body (q : quote) (cs : text) : Prop := is_q (qc q) /\ cs <> [] /\ Forall (fun c => c <> qc q) cs.

  Inductive literal_seq : list text -> text -> Prop :=
  | LS_nil : literal_seq [] []
  | LS_cons q cs ls v : lit_body q cs -> literal_seq ls v -> literal_seq (lit_of q cs :: ls) (cs ++ v).

  (* state of the loop: cur = the characters already written into the literal that is open under quote q *)
  Definition open_lit (q : quote) (lit : option text) (cur : text) : Prop :=
    pre ++ qtext q ++ flat_map esc cur = match lit with Some l => l | None => pre ++ qtext q end /\
    (lit = None <-> cur = []) /\ Forall (fun c => c <> qc q) cur.

  Lemma open_lit_push q lit cur c : open_lit q lit cur -> c <> qc q ->
    open_lit q (Some ((match lit with Some l => l | None => pre ++ qtext q end) ++ esc c)) (cur ++ [c]).
  Proof.
    intros (<- & _ & Hcs) Hc. split; [|split].
    - rewrite flat_map_app. cbn [flat_map]. rewrite app_nil_r, <- !app_assoc. reflexivity.
    - split; [discriminate | destruct cur; discriminate].
    - apply Forall_app. split; [exact Hcs | constructor; [exact Hc | constructor]].
  Qed.
  Lemma open_lit_nil q : open_lit q None [].
  Proof. split; [cbn [flat_map]; rewrite app_nil_r; reflexivity | split; [tauto | constructor]]. Qed.
  Lemma open_lit_start q c : c <> qc q -> open_lit q (Some (pre ++ qtext q ++ esc c)) [c].
  Proof. rewrite app_assoc. apply (open_lit_push q None [] c), open_lit_nil. Qed.

  Lemma flush_seq q lit cur ls v : is_q (qc q) -> open_lit q lit cur -> literal_seq ls v ->
    literal_seq (flush (Some q) lit ++ ls) (cur ++ v).
  Proof.
    intros Hq (Hl & Hnone & Hcs) H. destruct lit as [l|]; cbn [flush app].
    - subst l. rewrite <- !app_assoc. apply LS_cons; [|exact H].
      split; [exact Hq | split; [intro E; apply Hnone in E; discriminate | exact Hcs]].
    - rewrite (proj1 Hnone eq_refl). exact H.
  Qed.

  Lemma lits_spec s : forall q lit cur, is_q (qc q) -> open_lit q lit cur ->
    exists ls, lits pre esc full_quotes (Some q) lit s = Some ls /\ literal_seq ls (cur ++ s).
  Proof.
    induction s as [|c s IH]; intros q lit cur Hq Hopen; cbn [lits can_quote].
    - exists (flush (Some q) lit). split; [reflexivity|]. rewrite <- (app_nil_r (flush _ _)).
      apply flush_seq; [assumption..|apply LS_nil].
    - destruct (N.eqb_spec c (qc q)) as [_|Hne]; cbn [negb].
      + destruct (get_quote_full c) as (q' & -> & Hq' & Hne').
        destruct (IH q' _ [c] Hq' (open_lit_start q' c Hne')) as (ls & -> & Hls).
        exists (flush (Some q) lit ++ ls). split; [reflexivity|]. apply flush_seq; assumption.
      + destruct (IH q _ _ Hq (open_lit_push q lit cur c Hopen Hne)) as (ls & Hl & Hls).
        exists ls. rewrite <- app_assoc in Hls. split; assumption.
  Qed.

  (* joinr puts the literals one before the other, with a space where it sees fit: the text it makes, paired with the
     value, satisfies every T that these three steps keep *)
  Lemma joinr_seq (T : text -> text -> Prop) : T [] [] -> (forall r v, T r v -> T (32 :: r) v) ->
    (forall q cs r v, lit_body q cs -> T r v -> T (lit_of q cs ++ r) (cs ++ v)) ->
    forall ls v, literal_seq ls v -> T (joinr ls) v.
  Proof.
    intros Hnil Hsp Hlit ls v H. induction H as [|q cs ls v Hb _ IH]; cbn [joinr]; [exact Hnil|].
    apply Hlit; [exact Hb|]. destruct ls as [|l2 ls']; [exact IH|]. destruct (N.eqb _ _); [apply Hsp|]; exact IH.
  Qed.

  Theorem candidate_spec (T : text -> text -> Prop) : T [] [] -> (forall r v, T r v -> T (32 :: r) v) ->
    (forall q cs r v, lit_body q cs -> T r v -> T (lit_of q cs ++ r) (cs ++ v)) ->
    forall start s, In start full_quotes -> exists txt, candidate pre esc full_quotes start s = Some txt /\ T txt s.
  Proof.
    intros Hnil Hsp Hlit start s Hq%full_quotes_q. unfold candidate.
    destruct (lits_spec s start None [] Hq (open_lit_nil start)) as (ls & -> & Hls).
    eexists. split; [reflexivity|]. apply joinr_seq; assumption.
  Qed.
End Lits.

Section Closed.
  Variable pre : text.
  Variable esc : N -> text.
  Variable b : N.
  Hypothesis Hpre : pre = [] \/ pre = [98].
  Hypothesis Hesc : forall long q c, c <> q -> piece b long q c (esc c).

  Lemma body_scan long q cs rest : is_q q -> Forall (fun c => c <> q) cs ->
    scan long q (flat_map esc cs ++ (if long then [q; q; q] else [q]) ++ rest) = Some rest.
  Proof. intros Hq H. exact (pieces_closed b long q esc cs rest Hq (Forall_impl _ (Hesc long q) H)). Qed.
  Lemma body_head q cs rest : is_q q -> cs <> [] -> Forall (fun c => c <> q) cs -> starts2 q (flat_map esc cs ++ rest) = false.
  Proof.
    intros Hq Hne H. destruct H as [|c cs Hc _]; [contradiction|]. cbn [flat_map].
    destruct (piece_head b false q c _ Hq (Hesc false q c Hc)) as (x & r & -> & Hx). cbn [app starts2].
    apply N.eqb_neq in Hx. destruct ((r ++ flat_map esc cs) ++ rest); [reflexivity|]. rewrite Hx. reflexivity.
  Qed.

  Lemma lit_closed q cs rest : lit_body q cs -> lits_text rest -> lits_text (lit_of pre esc q cs ++ rest).
  Proof.
    intros (Hq & Hne & Hcs) Hrest. unfold lit_of, qtext. destruct (qlong q); rewrite <- !app_assoc.
    - eapply LT_long; [exact Hq | exact Hpre | | exact Hrest]. exact (body_scan true (qc q) cs rest Hq Hcs).
    - eapply LT_short; [exact Hq | exact Hpre | | | exact Hrest].
      + apply body_head; assumption.
      + exact (body_scan false (qc q) cs rest Hq Hcs).
  Qed.

  Theorem candidate_is_literals start s : In start full_quotes ->
    exists txt, candidate pre esc full_quotes start s = Some txt /\ lits_text txt.
  Proof.
    apply (candidate_spec pre esc (fun r _ => lits_text r)); [apply LT_nil | intros r _; apply LT_space |].
    intros q cs r _. apply lit_closed.
  Qed.
End Closed.

Definition no_raw (c : N) : bool := negb (c =? 10) && negb (c =? 13) && negb (c =? 0).
Lemma hex_fixed_no_raw w v : forallb no_raw (hex_fixed w v) = true.
Proof. apply hex_fixed_forallb. intros n Hn. pose proof (hex_digit_alnum n Hn). unfold no_raw. lia. Qed.
Lemma piece_no_raw b q c p : piece b false q c p -> forallb no_raw p = true.
Proof.
  intros [_ _ H10 H13 H0 | e He | x w Hx _]; cbn [forallb].
  - unfold no_raw. lia.
  - assert (e <> 10 /\ e <> 13 /\ e <> 0) by (repeat split; intros ->; discriminate). unfold no_raw. lia.
  - rewrite hex_fixed_no_raw. destruct Hx as [H|[H|[H|[]]]]; injection H as <- <-; reflexivity.
Qed.
(* double-quoted it's ; single-quoted start: the apostrophe forces a switch to double quotes ; triple start, newline escaped, quote forces a switch ; bytes *)
Example fstr_examples :
  str_candidate {| qc := 34; qlong := false |} [105; 116; 39; 115] = Some [34; 105; 116; 39; 115; 34] /\
  str_candidate {| qc := 39; qlong := false |} [105; 116; 39; 115] = Some [39; 105; 116; 39; 34; 39; 115; 34] /\
  str_candidate {| qc := 34; qlong := true |} [97; 10; 34; 98] = Some [34; 34; 34; 97; 92; 110; 34; 34; 34; 39; 34; 98; 39] /\
  bytes_candidate {| qc := 34; qlong := false |} [92; 255; 13] = Some [98; 34; 92; 92; 92; 120; 102; 102; 92; 114; 34].
Proof. vm_compute. repeat split. Qed.
