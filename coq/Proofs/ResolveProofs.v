From PM Require Import Model.Base Model.Renamer Proofs.RenamerProofs Model.Resolve.

(* what the name assignment guarantees (C03_assignment_separates, read on the finished table) *)
Definition separated (bs : list rb) : Prop :=
  forall b1 b2 s n, In b1 bs -> In b2 bs -> r_id b1 <> r_id b2 -> In s (r_scope b1) -> In s (r_scope b2) ->
    r_final b1 = Some n -> r_final b2 = Some n -> r_orig b1 = Some n /\ r_orig b2 = Some n.
(* a namespace holds at most one binding per original name (namespace.bindings is keyed by name), ids are unique *)
Definition unique_names (bs : list rb) : Prop :=
  forall b1 b2 n, In b1 bs -> In b2 bs -> r_owner b1 = r_owner b2 -> r_orig b1 = Some n -> r_orig b2 = Some n -> r_id b1 = r_id b2.
Definition unique_ids (bs : list rb) : Prop := forall b1 b2, In b1 bs -> In b2 bs -> r_id b1 = r_id b2 -> b1 = b2.
Definition owner_in_scope (bs : list rb) : Prop := forall b, In b bs -> In (r_owner b) (r_scope b).

Lemma find_named_some name_of ns name bs b : find (named name_of ns name) bs = Some b -> In b bs /\ r_owner b = ns /\ name_of b = Some name.
Proof.
  intro H. apply find_some in H as [Hin Hn]. apply andb_true_iff in Hn as [H1 H2].
  apply N.eqb_eq in H1. apply opt_text_eqb_eq in H2. auto.
Qed.
Lemma find_named_none name_of ns name bs b : find (named name_of ns name) bs = None -> In b bs -> r_owner b = ns -> name_of b = Some name -> False.
Proof.
  intros H Hin Ho Hn. eapply find_none in H; [|exact Hin]. unfold named in H.
  rewrite Ho, N.eqb_refl, (proj2 (opt_text_eqb_eq _ _) Hn) in H. discriminate.
Qed.

Section Preserved.
  Variable par : parents.
  Variable bs : list rb.
  Hypothesis Hsep : separated bs.
  Hypothesis Huniq : unique_names bs.
  Hypothesis Hids : unique_ids bs.
  Hypothesis Hown : owner_in_scope bs.

  Theorem resolution_preserved : forall fuel ns b n0 n l,
    In b bs -> r_orig b = Some n0 -> r_final b = Some n ->
    chain fuel par ns (r_owner b) = Some l -> (forall m, In m l -> In m (r_scope b)) ->
    resolve fuel par bs r_orig ns n0 = Some (r_id b) ->
    resolve fuel par bs r_final ns n = Some (r_id b).
  Proof.
    intros fuel ns b n0 n l Hb Ho Hf.
    (* no capture: within b's reservation scope, whoever ends up with b's final name had b's original name *)
    assert (Hcap : forall c, In c bs -> In (r_owner c) (r_scope b) -> r_final c = Some n -> r_orig c = Some n0).
    { intros c Hc Hs Hcf. destruct (N.eq_dec (r_id c) (r_id b)) as [E|E]; [apply Hids in E; congruence|].
      (* c's own namespace lies in both reservation scopes (Hown, Hs), so separation applies to c and b *)
      destruct (Hsep c b (r_owner c) n) as [Hco Hbo]; auto. congruence. }
    (* the two lookups walk the chain in step *)
    revert ns l. induction fuel as [|f IH]; intros ns l Hch Hcov Hres; [discriminate|].
    cbn [chain] in Hch. cbn [resolve] in Hres |- *. destruct (N.eqb_spec ns (r_owner b)) as [->|Hne].
    - (* b's own namespace holds b, and one binding with b's original name *)
      destruct (find (named r_final (r_owner b) n) bs) as [c|] eqn:E; [|exfalso; eapply find_named_none; eauto].
      apply find_named_some in E as (Hc & Hco & Hcn). f_equal. apply (Huniq c b n0); auto. apply Hcap; auto. rewrite Hco. auto.
    - destruct (parent_of par ns) as [p|]; [|discriminate]. destruct (chain f par p (r_owner b)) as [l'|] eqn:Ec; [|discriminate].
      injection Hch as <-. destruct (find (named r_orig ns n0) bs) as [c|] eqn:E.
      + (* the original lookup did not stop before b's namespace *)
        apply find_named_some in E as (Hc & Hco & _). injection Hres as Hid. apply Hids in Hid; auto. congruence.
      + destruct (find (named r_final ns n) bs) as [c|] eqn:E'; [exfalso|apply (IH p l'); auto using in_cons].
        apply find_named_some in E' as (Hc & <- & Hcn). eapply find_named_none; [exact E|exact Hc|reflexivity|].
        apply Hcap; auto using in_eq.
  Qed.
End Preserved.

Definition final_of (res : list (N * option text)) (i : N) : option text :=
  match find (fun p => N.eqb (fst p) i) res with Some (_, n) => n | None => None end.
Definition table (owner : binding -> N) (res : list (N * option text)) (bs : list binding) : list rb :=
  map (fun b => {| r_id := b_id b; r_owner := owner b; r_orig := b_name b; r_final := final_of res (b_id b); r_scope := b_scope b |}) bs.

Lemma final_of_in res i n : final_of res i = Some n -> In (i, Some n) res.
Proof.
  unfold final_of. destruct (find _ res) as [[j m]|] eqn:E; [|discriminate]. intros ->.
  apply find_some in E as [Hin He]. apply N.eqb_eq in He. now subst.
Qed.

Lemma rscope_covers fuel par owner sites s l :
  In s sites -> chain fuel par s owner = Some l -> forall m, In m l -> In m (rscope fuel par owner sites).
Proof.
  intros Hs Hc m Hm. right. apply in_flat_map. exists s. split; [exact Hs|]. rewrite Hc. exact Hm.
Qed.
Lemma rscope_owner fuel par owner sites : In owner (rscope fuel par owner sites).
Proof. left. reflexivity. Qed.
