From PM Require Import Model.Base Model.Struct.
Open Scope bool_scope.

Section stmt_ind2.
  Variable P : stmt -> Prop.
  Hypothesis Hs : forall k, P (Simple k).
  Hypothesis Hb : forall k mand opt unh,
      Forall (Forall P) mand -> Forall (Forall P) opt -> Forall (Forall P) unh -> P (Block k mand opt unh).
  Fixpoint stmt_ind2 (s : stmt) : P s :=
    let lf := fix lf (l : list stmt) : Forall P l :=
                match l with [] => Forall_nil _ | x :: l' => Forall_cons x (stmt_ind2 x) (lf l') end in
    let ll := fix ll (x : list (list stmt)) : Forall (Forall P) x :=
                match x with [] => Forall_nil _ | l :: x' => Forall_cons l (lf l) (ll x') end in
    match s with
    | Simple k => Hs k
    | Block k m o u => Hb k m o u (ll m) (ll o) (ll u)
    end.
End stmt_ind2.

(* SPECIFICATION: canon er erases, in every suite at every depth, exactly the statements er accepts *)
Definition erase_with (er : stmt -> bool) (f : stmt -> stmt) : list stmt -> list stmt :=
  fix e (l : list stmt) : list stmt := match l with [] => [] | x :: l' => if er x then e l' else f x :: e l' end.
Section Canon.
  Variable er : stmt -> bool.
  Fixpoint canon (s : stmt) : stmt :=
    match s with
    | Simple k => Simple k
    | Block k mand opt unh => Block k (map (erase_with er canon) mand) (map (erase_with er canon) opt) (map (erase_with er canon) unh)
    end.
  Definition cl (l : list stmt) : list stmt := erase_with er canon l.
  Lemma canon_block k m o u : canon (Block k m o u) = Block k (map cl m) (map cl o) (map cl u).
  Proof. reflexivity. Qed.
  Lemma cl_cons x l : cl (x :: l) = if er x then cl l else canon x :: cl l.
  Proof. reflexivity. Qed.
End Canon.

Lemma visit_block drop k m o u :
  visit drop (Block k m o u) = Block k (map (suite drop) m) (map (opt_suite_with drop (visit drop)) o) (map (map (visit drop)) u).
Proof. reflexivity. Qed.
Lemma filter_visit_cons d f x l : filter_visit d f (x :: l) = if d x then filter_visit d f l else f x :: filter_visit d f l.
Proof. reflexivity. Qed.
(* the statements of an unhooked suite are visited and none is filtered out: what holds of filter_visit for every filter
   holds of map *)
Lemma filter_visit_none f l : filter_visit (fun _ => false) f l = map f l.
Proof. reflexivity. Qed.

Definition is_zero (s : stmt) : bool := match s with Simple (KLit 0) => true | _ => false end.

Section Generic.
  Variable drop er : stmt -> bool.
  Hypothesis drop_erased : forall s, drop s = true -> er s = true.
  Hypothesis zero_erased : er zero_stmt = true.
  Hypothesis er_stable : forall s, er (visit drop s) = er s.

  Let P (s : stmt) : Prop := canon er (visit drop s) = canon er s.

  Lemma cl_filter_visit d l :
    (forall s, d s = true -> er s = true) -> Forall P l -> cl er (filter_visit d (visit drop) l) = cl er l.
  Proof.
    intro Hd. induction 1 as [|x l Hx _ IH]; [reflexivity|]. rewrite filter_visit_cons, cl_cons.
    destruct (d x) eqn:E.
    - rewrite (Hd x E). exact IH.
    - rewrite cl_cons, er_stable. rewrite Hx, IH. reflexivity.
  Qed.
  Lemma cl_map l : Forall P l -> cl er (map (visit drop) l) = cl er l.
  Proof. rewrite <- filter_visit_none. apply cl_filter_visit. discriminate. Qed.
  Lemma cl_suite l : Forall P l -> cl er (suite drop l) = cl er l.
  Proof.
    intro H. rewrite <- (cl_filter_visit drop l drop_erased H). unfold suite, suite_with.
    destruct (filter_visit drop (visit drop) l); [|reflexivity]. rewrite cl_cons, zero_erased. reflexivity.
  Qed.

  Theorem visit_canon s : canon er (visit drop s) = canon er s.
  Proof.
    induction s as [|k m o u Hm Ho Hu] using stmt_ind2; [reflexivity|].
    rewrite visit_block, !canon_block, !map_map. f_equal; apply map_ext_Forall.
    - revert Hm. apply Forall_impl. exact cl_suite.
    - revert Ho. apply Forall_impl. intros [|x l]; [reflexivity|apply cl_suite].
    - revert Hu. apply Forall_impl. exact cl_map.
  Qed.
  Theorem module_canon l : cl er (module_suite drop l) = cl er l.
  Proof. apply cl_filter_visit; [exact drop_erased|]. apply Forall_forall. intros x _. apply visit_canon. Qed.
  Theorem suite_canon l : cl er (suite drop l) = cl er l.
  Proof. apply cl_suite. apply Forall_forall. intros x _. apply visit_canon. Qed.
End Generic.

Lemma suite_nonempty drop l : suite drop l <> [].
Proof. unfold suite, suite_with. destruct (filter_visit drop (visit drop) l); discriminate. Qed.
Theorem visit_mand_nonempty drop k m o u :
  Forall (fun l => l <> []) (match visit drop (Block k m o u) with Block _ m' _ _ => m' | _ => [] end).
Proof. rewrite visit_block. apply Forall_forall. intros l H. apply in_map_iff in H as (l0 & <- & _). apply suite_nonempty. Qed.

Definition all_with (P : stmt -> Prop) : list stmt -> Prop :=
  fix a (l : list stmt) : Prop := match l with [] => True | x :: l' => P x /\ a l' end.
Definition am_with (P : stmt -> Prop) : list (list stmt) -> Prop :=
  fix am (m : list (list stmt)) : Prop := match m with [] => True | l :: m' => all_with P l /\ am m' end.
Fixpoint no_target (drop : stmt -> bool) (s : stmt) : Prop :=
  drop s = false /\
  match s with
  | Simple _ => True
  | Block _ mand opt unh =>
      Forall (fun l => l <> []) mand /\ am_with (no_target drop) mand /\ am_with (no_target drop) opt /\ am_with (no_target drop) unh
  end.
Lemma am_with_Forall P m : am_with P m <-> Forall (all_with P) m.
Proof. induction m as [|l m IH]; cbn; [split; constructor|rewrite IH, Forall_cons_iff; reflexivity]. Qed.
Lemma no_target_keep drop s : no_target drop s -> drop s = false.
Proof. destruct s; intros [H _]; exact H. Qed.
Lemma map_fixed {A} (f : A -> A) l : (forall x, In x l -> f x = x) -> map f l = l.
Proof. intro H. rewrite <- (map_id l) at 2. apply map_ext_in, H. Qed.

(* d is drop for the hooked suites and the filter that removes nothing for the unhooked ones *)
Lemma filter_visit_fixed {drop} d l :
  (forall s, no_target drop s -> d s = false) -> Forall (fun s => no_target drop s -> visit drop s = s) l ->
  all_with (no_target drop) l -> filter_visit d (visit drop) l = l.
Proof.
  intro Hd. induction 1 as [|x l Hx _ IH]; [reflexivity|]. intros [Hx1 Hx2].
  rewrite filter_visit_cons, (Hd x Hx1), (Hx Hx1), (IH Hx2). reflexivity.
Qed.
Theorem visit_identity drop s : no_target drop s -> visit drop s = s.
Proof.
  induction s as [k|k m o u IHm IHo IHu] using stmt_ind2; [reflexivity|].
  intros (_ & Hne & Hm & Ho & Hu). rewrite am_with_Forall in Hm, Ho, Hu. rewrite Forall_forall in IHm, IHo, IHu, Hne, Hm, Ho, Hu.
  rewrite visit_block. f_equal; apply map_fixed; intros l Hl.
  - unfold suite, suite_with. rewrite (filter_visit_fixed drop l (no_target_keep drop) (IHm l Hl) (Hm l Hl)).
    destruct l; [destruct (Hne _ Hl eq_refl)|reflexivity].
  - destruct l as [|x l]; [reflexivity|]. unfold opt_suite_with, suite_with.
    rewrite (filter_visit_fixed drop _ (no_target_keep drop) (IHo _ Hl) (Ho _ Hl)). reflexivity.
  - rewrite <- filter_visit_none. exact (filter_visit_fixed _ l (fun _ _ => eq_refl) (IHu l Hl) (Hu l Hl)).
Qed.

Definition er_pass (s : stmt) : bool := drop_pass s || is_zero s.
Definition er_assert (s : stmt) : bool := drop_assert s || is_zero s.
Definition er_debug (s : stmt) : bool := drop_debug s || is_zero s.
Definition er_optimise (s : stmt) : bool := drop_assert s || drop_debug s || is_zero s.   (* what python -O does not run *)

(* erasability that rewriting inside a statement cannot change: the third premise of module_canon, for every drop at once *)
Definition stable (er : stmt -> bool) : Prop := forall drop s, er (visit drop s) = er s.
Lemma stable_simple (f : stmt -> bool) : (forall k m o u, f (Block k m o u) = false) -> stable f.
Proof. intros H drop s. destruct s; [reflexivity|]. rewrite visit_block, !H. reflexivity. Qed.
Lemma stable_or {f g} : stable f -> stable g -> stable (fun s => f s || g s).
Proof. intros Hf Hg drop s. rewrite Hf, Hg. reflexivity. Qed.
Lemma stable_zero : stable is_zero. Proof. apply stable_simple. reflexivity. Qed.
Lemma stable_pass : stable drop_pass. Proof. apply stable_simple. reflexivity. Qed.
Lemma stable_assert : stable drop_assert. Proof. apply stable_simple. reflexivity. Qed.
Lemma stable_literal : stable drop_literal. Proof. apply stable_simple. reflexivity. Qed.
Lemma stable_debug : stable drop_debug.
Proof.
  (* drop_debug asks of the else suite only whether it is there and non-empty, which opt_suite_with does not change *)
  intros drop s. destruct s as [k|k m o u]; [reflexivity|]. rewrite visit_block.
  destruct o as [|[|x l] o']; [reflexivity|destruct o'; reflexivity|]. cbn [map opt_suite_with].
  destruct (suite_with drop (visit drop) (x :: l)) eqn:E; [|reflexivity]. destruct (suite_nonempty _ _ E).
Qed.

Corollary module_canon_zero {drop} : stable drop ->
  forall l, cl (fun s => drop s || is_zero s) (module_suite drop l) = cl (fun s => drop s || is_zero s) l.
Proof. intros H l. apply module_canon; [intros s ->; reflexivity|apply orb_true_r|apply (stable_or H stable_zero)]. Qed.
Lemma stable_optimise : stable er_optimise.
Proof. apply (stable_or (stable_or stable_assert stable_debug) stable_zero). Qed.

(* RemoveDebug removes an `if` only in the documented forms: the left operand is __debug__, the comparison is one of
   `is True`, `is not False`, `== True` (or the bare name), and there is no else branch *)
Definition documented_debug_if (s : stmt) : bool :=
  match s with
  | Block (BIf TDebugName) _ ([] | [[]]) _ => true
  | Block (BIf (TCmp true OIs CTrue)) _ ([] | [[]]) _ => true
  | Block (BIf (TCmp true OIsNot CFalse)) _ ([] | [[]]) _ => true
  | Block (BIf (TCmp true OEq CTrue)) _ ([] | [[]]) _ => true
  | _ => false
  end.

Inductive atom := AImp (n : N) | AFrom (m lv n : N) | AStar (m lv : N) (names : list N) | AStmt (s : stmt).
Definition atoms_of (s : stmt) : list atom :=
  match s with
  | Simple (KImport names) => map AImp names
  | Simple (KImportFrom m lv names false) => map (AFrom m lv) names
  | Simple (KImportFrom m lv names true) => [AStar m lv names]
  | _ => [AStmt s]
  end.
Definition atoms (l : list stmt) : list atom := flat_map atoms_of l.

Lemma combine_import_atoms acc l : atoms (combine_import acc l) = map AImp acc ++ atoms l.
Proof.
  revert acc; induction l as [|x l IH]; intro acc; cbn [combine_import].
  - destruct acc; reflexivity.
  - (* anything but a plain import flushes the names gathered so far and starts afresh *)
    assert (Hno : atoms (match acc with [] => x :: combine_import [] l | _ => Simple (KImport acc) :: x :: combine_import [] l end)
                  = map AImp acc ++ atoms (x :: l)).
    { destruct acc; cbn [atoms flat_map atoms_of map app]; fold (atoms (combine_import [] l)); rewrite IH; reflexivity. }
    destruct x as [[| | | |names| |]|]; try exact Hno.
    (* import names: gathered *)
    rewrite IH, map_app, <- app_assoc. reflexivity.
Qed.
(* what combine_from holds back (the names gathered since the last flush, all from module prev) and what it emits for them *)
Definition pending (prev : option (N * N)) (acc : list N) : list atom :=
  match prev with Some (m, lv) => map (AFrom m lv) acc | None => [] end.
Definition flush (prev : option (N * N)) (acc : list N) : list stmt :=
  match acc, prev with [], _ => [] | _, Some (m, lv) => [Simple (KImportFrom m lv acc false)] | _, None => [] end.
Lemma atoms_flush prev acc : atoms (flush prev acc) = pending prev acc.
Proof. destruct prev as [[m lv]|], acc; try reflexivity. apply app_nil_r. Qed.

(* names held back while no module is remembered would be lost; combine_from never gets there *)
Lemma combine_from_atoms prev acc l :
  (prev = None -> acc = []) -> atoms (combine_from prev acc l) = pending prev acc ++ atoms l.
Proof.
  revert prev acc; induction l as [|x l IH]; intros prev acc Hacc; cbn [combine_from]; fold (flush prev acc).
  - rewrite atoms_flush. symmetry. apply app_nil_r.
  - assert (Hno : atoms (flush prev acc ++ x :: combine_from prev [] l) = pending prev acc ++ atoms (x :: l)).
    { unfold atoms at 1. rewrite flat_map_app. fold (atoms (flush prev acc)). rewrite atoms_flush. cbn [flat_map].
      fold (atoms (combine_from prev [] l)). rewrite IH by reflexivity. destruct prev as [[m lv]|]; reflexivity. }
    destruct x as [[| | | | |m lv names [|]|]|]; try exact Hno.
    (* from m import names: merged when no module is remembered or the same one is *)
    destruct prev as [[pm plv]|].
    + destruct (N.eqb_spec m pm), (N.eqb_spec lv plv); try exact Hno. subst. cbn [andb]. rewrite IH by discriminate.
      cbn [pending atoms flat_map atoms_of]. rewrite map_app, <- app_assoc. reflexivity.
    + rewrite IH by discriminate. rewrite Hacc by reflexivity. reflexivity.
Qed.

Definition strip_object (k : blockkind) : blockkind :=
  match k with BClass id bases => BClass id (filter (fun b => negb (fst b)) bases) | _ => k end.
Lemma obj_visit_block k m o u :
  exists m' o' u', obj_visit (Block k m o u) = Block (strip_object k) m' o' u' /\ length m' = length m /\ length o' = length o /\ length u' = length u.
Proof. eexists _, _, _. split; [reflexivity|]. now rewrite !map_length. Qed.

Lemma ret_visit_func_nonempty id m o u :
  match ret_visit (Block (BFunc id) m o u) with Block _ m' _ _ => Forall (fun l => l <> []) m' | _ => False end.
Proof.
  cbn [ret_visit]. apply Forall_forall. intros l H. apply in_map_iff in H as (l0 & <- & _).
  destruct (strip_last_bare_return _); discriminate.
Qed.
