From PM Require Import Model.Base Model.SyntaxBase Gen.PrecTable Model.Syntax.
Open Scope bool_scope.
Open Scope nat_scope.

(* grammar level of a prefix operator and of the top of an expression, as the parser sees them (an atom: 100, above
   every operator) *)
Definition ulevel (o : unop) : nat := match o with Not => 6 | _ => 14 end.
Definition top_rbp (e : expr) : nat := match e with EName _ | ENum _ => 100 | EBin _ o _ => rbp o | EUn o _ => ulevel o end.
(* what may follow e without being taken into it, and the levels at which e can be asked for *)
Definition follow_ok (e : expr) (rest : list tok) : Prop := match rest with TOp o :: _ => lbp o < top_rbp e | _ => True end.
Definition bp_ok (e : expr) (minp : nat) : Prop := match e with EName _ | ENum _ => True | EBin _ o _ => minp <= lbp o | EUn o _ => minp <= ulevel o end.

(* one step of the parser; its four prefix-operator branches are one rule *)
Definition tokun (t : tok) : option unop :=
  match t with TOp Add => Some UAdd | TOp Sub => Some USub | TTilde => Some Invert | TNot => Some Not | _ => None end.
Lemma tokun_untok o : tokun (untok o) = Some o. Proof. destruct o; reflexivity. Qed.
Lemma pexpr_S f minp t r : pexpr (S f) minp (t :: r) =
    match tokun t with
    | Some u => if minp <=? ulevel u then match pexpr f (ulevel u) r with Some (e, r') => ploop f (EUn u e) minp r' | None => None end else None
    | None => match t with
              | TName n => ploop f (EName n) minp r
              | TNum n => ploop f (ENum n) minp r
              | TLP => match pexpr f 0 r with Some (e, TRP :: r') => ploop f e minp r' | _ => None end
              | _ => None
              end
    end.
Proof. destruct t as [| |[]| | | |]; reflexivity. Qed.
Lemma ploop_S f lhs minp ts : ploop (S f) lhs minp ts =
    match ts with
    | TOp o :: r =>
        if lbp o <? minp then Some (lhs, ts)
        else match pexpr f (rbp o) r with
             | Some (rhs, r') => ploop f (EBin lhs o rhs) minp r'
             | None => None end
    | _ => Some (lhs, ts)
    end.
Proof. reflexivity. Qed.

Lemma parser_mono f : (forall g minp ts x, f <= g -> pexpr f minp ts = Some x -> pexpr g minp ts = Some x)
            /\ (forall g l minp ts x, f <= g -> ploop f l minp ts = Some x -> ploop g l minp ts = Some x).
Proof.
  induction f as [|f [IHe IHl]]; split; intros until x; intros Hg H; try discriminate.
  all: destruct g as [|g]; [lia | apply le_S_n in Hg].
  - destruct ts as [|t r]; [discriminate|]. rewrite pexpr_S in H |- *. destruct (tokun t) as [u|].
    + destruct (minp <=? ulevel u); [|discriminate].
      destruct (pexpr f (ulevel u) r) as [[e r']|] eqn:E; [|discriminate]. rewrite (IHe g _ _ _ Hg E). now apply IHl.
    + destruct t; try discriminate; [now apply IHl .. |].
      destruct (pexpr f 0 r) as [[e [|[]]]|] eqn:E; try discriminate. rewrite (IHe g _ _ _ Hg E). now apply IHl.
  - rewrite ploop_S in H |- *. destruct ts as [|[n|n|o| | | |] r]; auto.
    destruct (lbp o <? minp); auto.
    destruct (pexpr f (rbp o) r) as [[e r']|] eqn:E; try discriminate.
    rewrite (IHe g _ _ _ Hg E). now apply IHl.
Qed.
(* from here on the parser is used through pexpr_S / ploop_S only; left transparent, cbn would unfold both fixpoints *)
Global Opaque pexpr ploop.
Definition pexpr_mono f := proj1 (parser_mono f).
Definition ploop_mono f := proj2 (parser_mono f).

(* `follow_ok e rest` is `stops (top_rbp e) rest`, and is used as such *)
Definition stops (lvl : nat) (rest : list tok) : Prop := match rest with TOp o :: _ => lbp o < lvl | _ => True end.
Lemma stops_le a b rest : a <= b -> stops a rest -> stops b rest.
Proof. destruct rest as [|[] ?]; cbn; auto. lia. Qed.
Lemma ploop_stops f e lvl rest : stops lvl rest -> ploop (S f) e lvl rest = Some (e, rest).
Proof.
  intro H. rewrite ploop_S. destruct rest as [|[n|n|o| | | |] r]; auto.
  destruct (Nat.ltb_spec (lbp o) lvl); auto. cbn in H. lia.
Qed.
Lemma ploop_op f l o r minp ts rest x :
  minp <= lbp o -> pexpr f (rbp o) ts = Some (r, rest) -> ploop f (EBin l o r) minp rest = Some x ->
  ploop (S f) l minp (TOp o :: ts) = Some x.
Proof. intros Hm Hr Hl. rewrite ploop_S, Hr. destruct (Nat.ltb_spec (lbp o) minp); [lia|exact Hl]. Qed.

(* the printer's table against the grammar's levels: all that the round trip needs of either.  The regenerated numbers
   ARE the levels doubled; an upstream renumbering, even one that keeps the order, makes these three fail (closed). *)
Lemma prec_bin o : prec_binop o = 2 * lbp o. Proof. destruct o; reflexivity. Qed.
Lemma prec_un o : prec_unop o = 2 * ulevel o. Proof. destruct o; reflexivity. Qed.
Lemma pow_special : pow_rhs_special = 2 * 14. Proof. reflexivity. Qed.
Lemma binop_cases o : 8 <= lbp o <= 13 /\ rbp o = S (lbp o) /\ is_pow o = false \/ lbp o = 15 /\ rbp o = 14 /\ is_pow o = true.
Proof. destruct o; try solve [left; repeat constructor]; right; repeat constructor. Qed.
Lemma ulevel_range o : ulevel o = 6 \/ ulevel o = 14. Proof. destruct o; auto. Qed.

Lemma bp_ok_0 e : bp_ok e 0. Proof. destruct e; cbn; auto; lia. Qed.

(* the grammar level of the head of an expression (0: an atom); the printer's precedence is this number doubled *)
Definition level (e : expr) : nat := match e with EName _ | ENum _ => 0 | EBin _ o _ => lbp o | EUn o _ => ulevel o end.
Lemma prec_level e : prec e = 2 * level e.
Proof. destruct e; [reflexivity | reflexivity | apply prec_bin | apply prec_un]. Qed.

(* the shape shared by _lhs, _rhs and visit_UnaryOp: no parentheses means an atom, or a precedence not below the
   operator's, and above it on the side the operator does not associate to *)
Lemma noparen p q t : negb (p =? 0) && ((p <? q) || ((p =? q) && t)) = false -> p = 0 \/ if t then q < p else q <= p.
Proof.
  destruct (Nat.eqb_spec p 0); [auto|]. destruct (Nat.ltb_spec p q); [discriminate|].
  destruct (Nat.eqb_spec p q), t; try discriminate; right; lia.
Qed.

(* An operand printed bare can be read back at the level of its position, and nothing that may follow the position
   is taken into it: its head is an atom or at least as high as the position.  14 is the level of the unary operators,
   the highest an operand position can have (the right of ** included). *)
Lemma fits e lvl : lvl <= 14 -> level e = 0 \/ lvl <= level e -> bp_ok e lvl /\ lvl <= top_rbp e.
Proof.
  intros Hl H. destruct e as [| |? o ?|o ?]; cbn [level bp_ok top_rbp] in *; [lia|lia| |].
  - destruct (binop_cases o) as [(? & -> & _)|(? & -> & _)]; lia.
  - pose proof (ulevel_range o). lia.
Qed.
Lemma rparen_ok o r : rparen o r = false -> bp_ok r (rbp o) /\ rbp o <= top_rbp r.
Proof.
  intro H. apply noparen in H. rewrite prec_level, prec_bin, pow_special in H.
  destruct (binop_cases o) as [(Ho & -> & Hp)|(Ho & -> & Hp)]; rewrite Hp in H; cbn [andb negb] in H.
  - apply fits; lia.
  - destruct (Nat.eqb_spec (2 * level r) (2 * 14)); apply fits; lia.
Qed.
Lemma uparen_ok o e : uparen o e = false -> bp_ok e (ulevel o) /\ ulevel o <= top_rbp e.
Proof.
  intro H. pose proof (noparen (prec e) (prec_unop o) false) as H'. rewrite andb_false_r, orb_false_r in H'.
  apply H' in H. rewrite prec_level, prec_un in H. pose proof (ulevel_range o). apply fits; lia.
Qed.
(* the left operand is where associativity enters: an equal level is allowed there, and only a binary head has it *)
Lemma lparen_ok l o m : lparen l o = false -> m <= lbp o -> bp_ok l m /\ lbp o < top_rbp l.
Proof.
  intros H Hm. apply noparen in H. rewrite prec_level, prec_bin in H.
  destruct (binop_cases o) as [(Ho & _ & Hp)|(Ho & _ & Hp)]; rewrite Hp in H.
  all: destruct l as [| |? lo ?|lo ?]; cbn [level bp_ok top_rbp] in *;
    [lia | lia | pose proof (binop_cases lo); lia | pose proof (ulevel_range lo); lia].
Qed.

(* fuel that reading a printed expression takes, beyond what the loop after it is given; the constants leave room
   for parentheses around every operand (key_paren, operand) *)
Fixpoint need (e : expr) : nat :=
  match e with EName _ | ENum _ => 1 | EBin l _ r => need l + need r + 8 | EUn _ x => S (need x + 4) end.

(* what read_back proves of every expression; `key` is its existential form *)
Definition reads_back (x : expr) : Prop := forall f minp rest y,
  bp_ok x minp -> follow_ok x rest -> ploop f x minp rest = Some y -> pexpr (need x + f) minp (pr x ++ rest) = Some y.

(* the same for an expression printed bare or in parentheses: in parentheses it needs no side condition *)
Lemma key_paren x b f g minp rest y :
  reads_back x -> (b = false -> bp_ok x minp /\ follow_ok x rest) ->
  ploop f x minp rest = Some y -> need x + f + 3 <= g ->
  pexpr g minp (paren b (pr x) ++ rest) = Some y.
Proof.
  intros IH Hb Hl Hg. destruct b; cbn [paren].
  - destruct g as [|g]; [lia|]. cbn [app]. rewrite <- app_assoc, pexpr_S.
    rewrite (pexpr_mono (need x + 1) g 0 _ (x, [TRP] ++ rest)).
    + apply (ploop_mono f); [lia|exact Hl].
    + lia.
    + apply IH; [apply bp_ok_0 | exact I | now rewrite ploop_S].
  - destruct (Hb eq_refl). apply (pexpr_mono (need x + f)); [lia|]. now apply IH.
Qed.
Lemma operand x b lvl rest g :
  reads_back x -> (b = false -> bp_ok x lvl /\ lvl <= top_rbp x) -> stops lvl rest -> need x + 4 <= g ->
  pexpr g lvl (paren b (pr x) ++ rest) = Some (x, rest).
Proof.
  intros IH Hb Hs Hg. apply (key_paren x b 1); [exact IH | | now apply ploop_stops | lia].
  intro E. destruct (Hb E). split; [assumption|]. now apply (stops_le lvl).
Qed.

Lemma read_back e : reads_back e.
Proof.
  induction e as [m | m | l IHl o r IHr | o e IHe]; intros f minp rest x Hbp Hfo Hloop; cbn [need pr].
  1, 2: cbn [app Nat.add]; now rewrite pexpr_S.
  - rewrite <- app_assoc. cbn [app].
    (* l is read first; the loop after it takes o, reads r at rbp o, and goes on as the loop after EBin l o r does *)
    apply (key_paren l _ (S (need r + f + 4))); [exact IHl | | | lia].
    + intro E. now apply lparen_ok.
    + apply ploop_op with (r := r) (rest := rest).
      * exact Hbp.
      * apply (operand r); [exact IHr | apply rparen_ok | exact Hfo | lia].
      * apply (ploop_mono f); [lia|exact Hloop].
  - cbn [app Nat.add]. rewrite pexpr_S, tokun_untok.
    destruct (Nat.leb_spec minp (ulevel o)); [|cbn in Hbp; lia].
    rewrite (operand e _ _ rest (need e + 4 + f) IHe (uparen_ok o e) Hfo) by lia.
    apply (ploop_mono f); [lia|exact Hloop].
Qed.

Lemma key : forall e, exists n, forall f minp rest x,
   bp_ok e minp -> follow_ok e rest ->
   ploop f e minp rest = Some x -> pexpr (n + f) minp (pr e ++ rest) = Some x.
Proof. intro e. exists (need e). apply read_back. Qed.

(* the whole expression is an operand at level 0 in front of nothing *)
Theorem roundtrip e f : need e + 4 <= f -> pexpr f 0 (pr e) = Some (e, []).
Proof.
  intro Hf. rewrite <- (app_nil_r (pr e)).
  apply (operand e false); [apply read_back | split; [apply bp_ok_0 | lia] | exact I | exact Hf].
Qed.
