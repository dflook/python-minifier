From Coq Require Import String NArith.
From PM Require Import Model.IntLit.

Lemma to_uint_nonnil v : N.to_uint v <> Decimal.Nil.
Proof. destruct v; [discriminate|apply DecimalPos.Unsigned.to_uint_nonnil]. Qed.
Lemma to_hex_uint_nonnil v : N.to_hex_uint v <> Hexadecimal.Nil.
Proof. destruct v; [discriminate|apply HexadecimalPos.Unsigned.to_uint_nonnil]. Qed.

(* a printed decimal starts with a digit, and if that is 0 a digit or nothing follows: never "0x" *)
Lemma int_of_literal_decimal d :
  int_of_literal (DecimalString.NilZero.string_of_uint d) = option_map N.of_uint (DecimalString.NilZero.uint_of_string (DecimalString.NilZero.string_of_uint d)).
Proof. destruct d as [|d|d|d|d|d|d|d|d|d|d]; try reflexivity. destruct d; reflexivity. Qed.

Lemma hex_text_read v : int_of_literal (hex_text v) = Some v.
Proof.
  unfold hex_text. cbn [append int_of_literal].
  rewrite HexadecimalString.NilZero.usu by apply to_hex_uint_nonnil. cbn. now rewrite HexadecimalN.Unsigned.of_to.
Qed.
Lemma dec_text_read v : int_of_literal (dec_text v) = Some v.
Proof.
  unfold dec_text. rewrite int_of_literal_decimal, DecimalString.NilZero.usu by apply to_uint_nonnil.
  cbn. now rewrite DecimalN.Unsigned.of_to.
Qed.

(* either printing reads back: the length test plays no part *)
Theorem int_literal_roundtrip v : int_of_literal (print_int v) = Some v.
Proof. unfold print_int. destruct (Nat.ltb _ _); [apply hex_text_read | apply dec_text_read]. Qed.
