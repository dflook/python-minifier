From PM Require Import Model.Base Model.Fold.

Lemma fl_eq_nonneg a b : fl_eq a b = true -> negb (fl_signbit a) = true -> negb (fl_signbit b) = true -> a = b.
Proof.
  destruct a as [|[|] m], b as [|[|] m']; cbn; try discriminate. intros H _ _.
  apply andb_true_iff in H as [H _]. apply N.eqb_eq in H. now subst.
Qed.
Lemma eq_nonneg_ident f v : py_eq f v = true -> nonneg f = true -> nonneg v = true -> f = v.
Proof.
  destruct f, v; cbn; try discriminate; intros H Hf Hv.
  - apply Z.eqb_eq in H. now subst.
  - apply Bool.eqb_prop in H. now subst.
  - f_equal. apply fl_eq_nonneg; assumption.
  - apply andb_true_iff in H as [H1 H2]. apply andb_true_iff in Hf as [Hf1 Hf2]. apply andb_true_iff in Hv as [Hv1 Hv2].
    f_equal; apply fl_eq_nonneg; assumption.
  - reflexivity.
  - apply N.eqb_eq in H. now subst.
Qed.

Lemma fl_neg_invol f : fl_neg (fl_neg f) = f.
Proof. destruct f as [|s m]; cbn; [reflexivity|]. now rewrite negb_involutive. Qed.

Section ex_ind2.
  Variable P : ex -> Prop.
  Hypothesis Hlit : forall v, P (Lit v).
  Hypothesis Hneg : forall e, P e -> P (Neg e).
  Hypothesis Hbin : forall l o r, P l -> P r -> P (Bin l o r).
  Hypothesis Hctx : forall c args, Forall P args -> P (Ctx c args).
  Hypothesis Hleaf : forall n, P (Leaf n).
  Fixpoint ex_ind2 (e : ex) : P e :=
    let lf := fix lf (l : list ex) : Forall P l := match l with [] => Forall_nil _ | a :: l' => Forall_cons a (ex_ind2 a) (lf l') end in
    match e with
    | Lit v => Hlit v | Neg a => Hneg a (ex_ind2 a) | Bin l o r => Hbin l o r (ex_ind2 l) (ex_ind2 r)
    | Ctx c args => Hctx c args (lf args) | Leaf n => Hleaf n
    end.
End ex_ind2.

(* cbn on a candidate must stop at these two: the case analyses below open them where they mean to *)
Arguments repr_neg : simpl never.
Arguments negv : simpl never.

Section FoldingProofs.
  Variable pr : ex -> text.
  Variable ev : text -> option val.
  Variable reparse_ok : ex -> bool.
  Variable repr_fails : val -> bool.

  (* hypotheses about the interpreter and the printed text of NUMBER candidates (each sampled by leg L) *)
  (* HL: a candidate Num that re-parses to itself is one unsigned literal token: it evaluates to a value without sign bits *)
  Hypothesis HL : forall w x, reparse_ok (Lit w) = true -> ev (pr (Lit w)) = Some x -> nonneg x = true.
  (* HE: '-' in front of such a token evaluates to the negation *)
  Hypothesis HE : forall w, reparse_ok (Neg (Lit w)) = true ->
      reparse_ok (Lit w) = true /\ forall x, ev (pr (Lit w)) = Some x -> ev (pr (Neg (Lit w))) = Some (negv x).
  (* HEv: and it evaluates at all only if the token does *)
  Hypothesis HEv : forall w y, reparse_ok (Neg (Lit w)) = true -> ev (pr (Neg (Lit w))) = Some y -> exists x, ev (pr (Lit w)) = Some x.
  (* HRc: a complex Num that re-parses to itself is a plain imaginary literal: no sign bits *)
  Hypothesis HRc : forall w, ty w = TComplex -> reparse_ok (Lit w) = true -> nonneg w = true.

  Notation try_fold := (try_fold pr ev reparse_ok repr_fails).
  Notation fold := (fold pr ev reparse_ok repr_fails).

  Lemma nonneg_negv_repr_neg v :   (* int/float with a leading '-' in repr: the negation has no sign bit *)
    repr_neg v = true -> match ty v with TInt | TFloat => nonneg (negv v) = true | _ => True end.
  Proof.
    unfold repr_neg, negv. destruct v as [z| |f| | |]; cbn; auto.
    - lia.
    - destruct f as [|s m]; cbn; [discriminate|]. intros ->. reflexivity.
  Qed.

  (* what visit_BinOp has checked when it replaces the node by `new`: v is the value of the node, f that of `new` *)
  Set Implicit Arguments.
  Record accepted (l : ex) (o : op) (r new : ex) (v f : val) : Prop := {
    acc_left : is_const l = true;
    acc_right : is_const r = true;
    acc_value : ev (pr (Bin l o r)) = Some v;
    acc_no_nan : float_nan v = false;
    acc_finite : complex_nonfinite v = false;
    acc_candidate : candidate repr_fails v = Some new;
    acc_reads : ev (pr new) = Some f;
    acc_shorter : length (pr new) < length (pr (Bin l o r));
    acc_reparses : reparse_ok new = true;
    acc_equal : eqvt f v = true }.
  Unset Implicit Arguments.
  Lemma try_fold_spec l o r : try_fold l o r = Bin l o r \/ exists v f, accepted l o r (try_fold l o r) v f.
  Proof.
    unfold Fold.try_fold.
    destruct (is_const l) eqn:Hl; [|now left]. destruct (is_const r) eqn:Hr; [|now left]. cbn [negb].
    (* the eleven foldable operators share one body; name it before the match on o copies it *)
    set (body := match ev (pr (Bin l o r)) with Some _ => _ | None => _ end).
    enough (body = Bin l o r \/ exists v f, accepted l o r body v f) by (destruct o; auto).
    subst body.
    destruct (ev (pr (Bin l o r))) as [v|] eqn:Hv; [|now left].
    destruct (float_nan v) eqn:Hnan; [now left|]. destruct (complex_nonfinite v) eqn:Hcn; [now left|].
    destruct (candidate repr_fails v) as [new|] eqn:Hc; [|now left].
    destruct (ev (pr new)) as [f|] eqn:Hf; [|now left].
    destruct (Nat.leb_spec (length (pr (Bin l o r))) (length (pr new))); [now left|].
    destruct (reparse_ok new) eqn:Hrp; [|now left]. destruct (eqvt f v) eqn:He; [|now left].
    right. now exists v, f.
  Qed.

  Lemma candidate_shape v new : candidate repr_fails v = Some new -> new = if repr_neg v then Neg (Lit (negv v)) else Lit v.
  Proof.
    destruct v; cbn [candidate]; try (destruct (repr_fails _); [discriminate|]); now intros [= <-].
  Qed.

  (* the heart: whenever every check of visit_BinOp passes, the candidate evaluates to EXACTLY the original value.  Of
     equal_value_and_type only the == is used: py_eq already fails across types and on NaN. *)
  Lemma candidate_identical v new f :
    candidate repr_fails v = Some new -> ev (pr new) = Some f -> reparse_ok new = true -> py_eq f v = true -> f = v.
  Proof.
    intros Hc Hf Hr Heq. apply candidate_shape in Hc. subst new.
    destruct (repr_neg v) eqn:Hneg.
    - (* '-' and a token: f is the negation of a value x without sign bits *)
      destruct (HE _ Hr) as [Hr' Hev]. destruct (HEv _ _ Hr Hf) as [x Hx].
      rewrite (Hev x Hx) in Hf. injection Hf as <-. pose proof (HL _ _ Hr' Hx) as Hxnn.
      unfold repr_neg in Hneg. destruct v as [z| |[|s m]|re im| |]; try discriminate Hneg.
      + (* int: == is identity, whatever x was *)
        destruct (negv x); cbn in Heq; try discriminate. apply Z.eqb_eq in Heq. now subst.
      + cbn in Hneg. subst s. unfold negv in *. destruct x as [| |[|sx mx]| | |]; cbn in Heq, Hxnn; try discriminate.
        apply negb_true_iff in Hxnn. apply andb_true_iff in Heq as [Hm _]. apply N.eqb_eq in Hm. now subst.
      + (* '-...j': -(Num(-v)) can never re-parse to itself: -v has a set sign bit on its real part *)
        pose proof (HRc (negv (VComplex re im)) eq_refl Hr') as Hnn.
        unfold negv in Hnn. destruct re as [|[|] [|p]]; discriminate.
    - (* a bare token: f and v are == and without sign bits *)
      apply eq_nonneg_ident; auto; [exact (HL _ _ Hr Hf)|].
      unfold repr_neg in Hneg. destruct v as [z| |fv|re im| |]; cbn [nonneg]; auto.
      + apply Z.leb_le. apply Z.ltb_ge in Hneg. exact Hneg.
      + now rewrite Hneg.
      + exact (HRc (VComplex re im) eq_refl Hr).
  Qed.

  (* one step, exceptions included: an expression whose evaluation raises is left in place *)
  Lemma try_fold_sound l o r : ev (pr (try_fold l o r)) = ev (pr (Bin l o r)).
  Proof.
    destruct (try_fold_spec l o r) as [->|(v & f & A)]; [reflexivity|].
    rewrite (acc_reads A), (acc_value A). f_equal.
    destruct (proj1 (andb_true_iff _ _) (acc_equal A)) as [_ He].
    exact (candidate_identical v _ f (acc_candidate A) (acc_reads A) (acc_reparses A) He).
  Qed.

  Hypothesis Cbin : forall l l' o r r', ev (pr l) = ev (pr l') -> ev (pr r) = ev (pr r') -> ev (pr (Bin l o r)) = ev (pr (Bin l' o r')).
  Hypothesis Cneg : forall a a', ev (pr a) = ev (pr a') -> ev (pr (Neg a)) = ev (pr (Neg a')).
  Hypothesis Cctx : forall c args args', Forall2 (fun a b => ev (pr a) = ev (pr b)) args args' -> ev (pr (Ctx c args)) = ev (pr (Ctx c args')).

  Theorem fold_preserves_eval e : ev (pr (fold e)) = ev (pr e).
  Proof.
    induction e as [v|a IHa|l o r IHl IHr|c args IH|n] using ex_ind2; cbn [Fold.fold]; try reflexivity.
    - apply Cneg. exact IHa.
    - rewrite try_fold_sound. apply Cbin; assumption.
    - apply Cctx. induction IH as [|a args Ha _ IH]; constructor; assumption.
  Qed.

  Definition lit_nan (v : val) : bool := match v with VFloat FNan => true | VComplex r i => match r, i with FNan, _ | _, FNan => true | _, _ => false end | _ => false end.
  Fixpoint no_nan (e : ex) : Prop :=
    match e with
    | Lit v => lit_nan v = false
    | Neg a => no_nan a
    | Bin l _ r => no_nan l /\ no_nan r
    | Ctx _ args => (fix all (l : list ex) : Prop := match l with [] => True | a :: l' => no_nan a /\ all l' end) args
    | Leaf _ => True
    end.
  Lemma finite_no_nan v : float_nan v = false -> complex_nonfinite v = false -> lit_nan v = false /\ lit_nan (negv v) = false.
  Proof.
    unfold negv. destruct v as [| |[|]|re im| |]; cbn; try discriminate; auto.
    intros _ H. apply orb_false_iff in H as [Hr Hi]. destruct re, im; try discriminate; auto.
  Qed.
  Lemma try_fold_no_nan l o r : no_nan l -> no_nan r -> no_nan (try_fold l o r).
  Proof.
    intros Hl Hr. destruct (try_fold_spec l o r) as [->|(v & f & A)]; [now split|].
    rewrite (candidate_shape v _ (acc_candidate A)). destruct (finite_no_nan v (acc_no_nan A) (acc_finite A)). now destruct (repr_neg v).
  Qed.
  Theorem fold_no_nan e : no_nan e -> no_nan (fold e).
  Proof.
    induction e as [v|a IHa|l o r IHl IHr|c args IH|n] using ex_ind2; cbn [Fold.fold no_nan].
    - auto.
    - exact IHa.
    - intros [Hl Hr]. apply try_fold_no_nan; auto.
    - induction IH as [|a args Ha _ IH]; [auto|]. intros [H1 H2]. split; [apply Ha; exact H1 | exact (IH H2)].
    - auto.
  Qed.

  Lemma try_fold_shorter l o r : try_fold l o r = Bin l o r \/ length (pr (try_fold l o r)) < length (pr (Bin l o r)).
  Proof. destruct (try_fold_spec l o r) as [?|(v & f & A)]; [now left | right; apply A]. Qed.
End FoldingProofs.
