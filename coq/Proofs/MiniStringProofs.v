From PM Require Import Model.Base Model.MiniString Model.StrDecode.
From Coq Require Import ZifyBool.   (* lia over the boolean comparisons =? <? <=? on N *)
Open Scope bool_scope.
Open Scope N_scope.

(* convertible with FStr.is_q (FStrProofs.is_q_quote); hypotheses of either form are passed for the other *)
Definition is_quote (q : N) : Prop := q = 39 \/ q = 34.

(* characters that the scanner passes over one at a time *)
Definition inert (q c : N) : bool := negb (c =? q) && negb (c =? 10) && negb (c =? 92).

Lemma hex_digit_alnum n : n < 16 -> 48 <= hex_digit n <= 57 \/ 97 <= hex_digit n <= 102.
Proof. unfold hex_digit. destruct (N.ltb_spec n 10); lia. Qed.
Lemma hex_fixed_forallb (P : N -> bool) : (forall n, n < 16 -> P (hex_digit n) = true) ->
  forall w v, forallb P (hex_fixed w v) = true.
Proof.
  intros HP w. induction w as [|w IH]; intro v; [reflexivity|]. cbn [hex_fixed].
  rewrite forallb_app, IH. cbn [forallb]. rewrite HP; [reflexivity|]. apply N.mod_lt. discriminate.
Qed.
Lemma hex_fixed_inert q w v : is_quote q -> forallb (inert q) (hex_fixed w v) = true.
Proof.
  intro Hq. apply hex_fixed_forallb. intros n Hn. pose proof (hex_digit_alnum n Hn). unfold inert. destruct Hq; lia.
Qed.

Definition scan (long : bool) : N -> text -> option text := if long then scan_long else scan_short.

Lemma scan_raw long q c rest : c <> q -> c <> 92 -> (long = false -> c <> 10) ->
  scan long q (c :: rest) = scan long q rest.
Proof.
  intros H1 H2 H3. destruct long; cbn [scan scan_long scan_short].
  - replace (c =? 92) with false by lia. replace (c =? q) with false by lia. reflexivity.
  - replace (c =? q) with false by lia. replace (c =? 10) with false by lia.
    replace (c =? 92) with false by lia. reflexivity.
Qed.
Lemma scan_esc long q e rest : is_quote q -> scan long q (92 :: e :: rest) = scan long q rest.
Proof.
  intro Hq. destruct long; cbn [scan scan_long scan_short]; [reflexivity|].
  replace (92 =? q) with false by (destruct Hq; lia). reflexivity.
Qed.
Lemma scan_inert long q cs rest : forallb (inert q) cs = true -> scan long q (cs ++ rest) = scan long q rest.
Proof.
  induction cs as [|c cs IH]; [reflexivity|]. cbn [forallb app]. intro H.
  apply andb_true_iff in H as [Hc H]. unfold inert in Hc. rewrite scan_raw by lia. exact (IH H).
Qed.
Lemma scan_close long q rest : is_quote q -> scan long q ((if long then [q; q; q] else [q]) ++ rest) = Some rest.
Proof.
  intro Hq. destruct long; cbn [scan scan_long scan_short app starts2 skipn].
  - replace (q =? 92) with false by (destruct Hq; lia). rewrite N.eqb_refl. reflexivity.
  - rewrite N.eqb_refl. reflexivity.
Qed.

(* Every writer (short_char, long_char, FStr.esc_str, FStr.esc_bytes) puts a character c between quotes q in one of three
   forms; each reader (the two scanners here, the decoder `dec` in StrDecodeProofs, no_raw in FStrProofs) is shown once to
   pass over each form; the bytes decoder `decb` has esc_bytes as its one writer and is analysed on it directly
   (FStrValueProofs).  `b`: characters below b fit the width of their hex escape (the scanners do not care: what is said
   of them holds for all N); 1114112 = 0x110000 bounds the code points, 256 the bytes.
   hex_escapes: the letters x, u, U, each with the number of digits that follow it. *)
Definition hex_escapes : list (N * nat) := [(120, 2%nat); (117, 4%nat); (85, 8%nat)].
Inductive piece (b : N) (long : bool) (q c : N) : text -> Prop :=
| P_raw : c <> q -> c <> 92 -> (long = false -> c <> 10) -> c <> 13 -> c <> 0 -> piece b long q c [c]
| P_esc e : simple_escape e = Some c -> piece b long q c [92; e]
| P_hex x w : In (x, w) hex_escapes -> (c < b -> c < 16 ^ N.of_nat w) -> piece b long q c (92 :: x :: hex_fixed w c).

Lemma P_x b long q c : (c < b -> c < 256) -> piece b long q c (92 :: 120 :: hex_fixed 2 c).
Proof. apply (P_hex b long q c 120 2). left. reflexivity. Qed.
Lemma P_u b long q c : (c < b -> c < 65536) -> piece b long q c (92 :: 117 :: hex_fixed 4 c).
Proof. apply (P_hex b long q c 117 4). right. left. reflexivity. Qed.
Lemma P_U b long q c : (c < b -> c < 4294967296) -> piece b long q c (92 :: 85 :: hex_fixed 8 c).
Proof. apply (P_hex b long q c 85 8). right. right. left. reflexivity. Qed.

Lemma piece_scan b long q c p rest : is_quote q -> piece b long q c p -> scan long q (p ++ rest) = scan long q rest.
Proof.
  intros Hq [H1 H2 H3 _ _ | e _ | x w _ _]; cbn [app].
  - apply scan_raw; assumption.
  - apply scan_esc; exact Hq.
  - rewrite scan_esc by exact Hq. apply scan_inert, hex_fixed_inert, Hq.
Qed.
Lemma piece_head b long q c p : is_quote q -> piece b long q c p -> exists x r, p = x :: r /\ x <> q.
Proof.
  intros Hq [H1 _ _ _ _ | e _ | x w _ _]; eexists _, _; (split; [reflexivity|]); destruct Hq; lia.
Qed.

Lemma flat_map_skipped {A} (R : text -> A) (w : N -> text) cs rest :
  Forall (fun c => forall r, R (w c ++ r) = R r) cs -> R (flat_map w cs ++ rest) = R rest.
Proof.
  intro H. induction H as [|c cs Hc _ IH]; [reflexivity|].
  cbn [flat_map]. rewrite <- app_assoc, Hc. exact IH.
Qed.

Theorem pieces_closed b long q (w : N -> text) s rest :
  is_quote q -> Forall (fun c => piece b long q c (w c)) s ->
  scan long q (flat_map w s ++ (if long then [q; q; q] else [q]) ++ rest) = Some rest.
Proof.
  intros Hq Hs. rewrite (flat_map_skipped (scan long q) w); [apply scan_close; exact Hq|].
  apply (Forall_impl _ (fun c Hc r => piece_scan b long q c (w c) r Hq Hc) Hs).
Qed.

Lemma short_char_long safe q c : short_char safe q c = if c =? 10 then [92; 110] else long_char safe q c.
Proof. reflexivity. Qed.

(* esc_common is a lookup in the table of the dict's eight entries *)
Definition esc_table : list (N * text) :=
  [(92, [92; 92]); (7, [92; 97]); (8, [92; 98]); (12, [92; 102]); (13, [92; 114]); (9, [92; 116]); (11, [92; 118]);
   (0, [92; 120; 48; 48])].
Fixpoint table_lookup (c : N) (t : list (N * text)) : option text :=
  match t with [] => None | (k, e) :: t' => if c =? k then Some e else table_lookup c t' end.
Lemma esc_common_lookup c : esc_common c = table_lookup c esc_table.
Proof. reflexivity. Qed.
Lemma table_lookup_In c t e : table_lookup c t = Some e -> In (c, e) t.
Proof.
  induction t as [|[k e'] t IH]; cbn [table_lookup In]; [discriminate|].
  destruct (N.eqb_spec c k) as [->|_]; [intros [= ->]; left; reflexivity | right; apply IH; assumption].
Qed.

Lemma esc_common_piece b long q c e : esc_common c = Some e -> piece b long q c e.
Proof.
  rewrite esc_common_lookup. intro H. apply table_lookup_In in H.
  destruct H as [H|[H|[H|[H|[H|[H|[H|[H|[]]]]]]]]]; injection H as <- <-; try (apply P_esc; reflexivity).
  (* NUL, the one entry that is a hex escape *)
  exact (P_x b long q 0 (fun _ => eq_refl)).
Qed.
Lemma esc_common_none c : esc_common c = None -> c <> 92 /\ c <> 13 /\ c <> 0.
Proof. repeat split; intros ->; discriminate. Qed.

Lemma plain_char_piece long safe q c : piece 1114112 long q c [c] -> piece 1114112 long q c (plain_char safe c).
Proof.
  intro H. unfold plain_char. destruct safe; [|exact H].
  destruct (N.leb_spec c 127); [exact H|]. destruct (N.leb_spec c 65535); [apply P_u | apply P_U]; lia.
Qed.

Lemma simple_escape_quote q : is_quote q -> simple_escape q = Some q.
Proof. intros [->| ->]; reflexivity. Qed.

Lemma long_char_piece long safe q c : is_quote q -> (long = false -> c <> 10) -> piece 1114112 long q c (long_char safe q c).
Proof.
  intros Hq H10. unfold long_char. destruct (esc_common c) as [e|] eqn:E; [apply esc_common_piece; exact E|].
  destruct (esc_common_none c E) as (H92 & H13 & H0).
  destruct (N.eqb_spec c q) as [->|Hcq]; [apply P_esc, simple_escape_quote, Hq|].
  apply plain_char_piece, P_raw; assumption.
Qed.
Lemma short_char_piece safe q c : is_quote q -> piece 1114112 false q c (short_char safe q c).
Proof.
  intro Hq. rewrite short_char_long. destruct (N.eqb_spec c 10) as [->|H10]; [apply P_esc; reflexivity|].
  apply long_char_piece; [exact Hq | intros _; exact H10].
Qed.
