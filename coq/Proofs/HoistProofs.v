From PM Require Import Model.Base Model.Hoist.
Open Scope bool_scope.

Lemma insert_spec new l : insert new l = takewhile is_prefix_stmt l ++ new :: dropwhile is_prefix_stmt l.
Proof. induction l as [|x l IH]; cbn; [reflexivity|]. destruct (is_prefix_stmt x); [now rewrite IH|reflexivity]. Qed.
Lemma takewhile_all {A} (p : A -> bool) l : forallb p (takewhile p l) = true.
Proof. induction l as [|x l IH]; cbn; [reflexivity|]. destruct (p x) eqn:E; cbn; [now rewrite E|reflexivity]. Qed.
Lemma dropwhile_head {A} (p : A -> bool) l x r : dropwhile p l = x :: r -> p x = false.
Proof. induction l as [|y l IH]; cbn; [discriminate|]. destruct (p y) eqn:E; [exact IH|]. intros [= -> _]. exact E. Qed.
Lemma take_drop {A} (p : A -> bool) l : takewhile p l ++ dropwhile p l = l.
Proof. induction l as [|x l IH]; cbn; [reflexivity|]. destruct (p x); cbn; [now rewrite IH|reflexivity]. Qed.

Lemma is_prefix_refl a : is_prefix a a = true.
Proof. induction a; cbn; [reflexivity|]. now rewrite N.eqb_refl. Qed.
(* common_path is the greatest lower bound in the prefix order; the fold is the glb of all paths *)
Lemma is_prefix_glb r : forall a b, is_prefix r (common_path a b) = is_prefix r a && is_prefix r b.
Proof.
  induction r as [|z r IH]; intros [|x a] [|y b]; cbn [is_prefix common_path andb]; rewrite ?andb_false_r; try reflexivity.
  destruct (N.eqb_spec x y) as [->|Hne].
  - rewrite IH. destruct (N.eqb z y); reflexivity.
  - destruct (N.eqb_spec z x) as [->|]; [|reflexivity]. destruct (N.eqb_spec x y); [contradiction|]. now rewrite andb_false_r.
Qed.
Lemma is_prefix_fold r rest : forall p, is_prefix r (fold_left common_path rest p) = is_prefix r p && forallb (is_prefix r) rest.
Proof.
  induction rest as [|q rest IH]; intro p; cbn [fold_left forallb]; [now rewrite andb_true_r|].
  now rewrite IH, is_prefix_glb, andb_assoc.
Qed.
Lemma common_path_head x a b : common_path (x :: a) (x :: b) = x :: common_path a b.
Proof. cbn. now rewrite N.eqb_refl. Qed.
