From PM Require Import Model.Base Gen.TokenRules Model.Cost.
Open Scope nat_scope.

(* changing only lexeme LENGTHS (the emitted kinds stay the same: an identifier replaced by an identifier) changes the
   rendered length by exactly the difference of the lexeme lengths: no space appears or disappears *)
Definition same_kinds (a b : list ptok) : Prop := map p_emit a = map p_emit b.
Theorem rename_len_delta prev a b : same_kinds a b -> rlen prev b + total a = rlen prev a + total b.
Proof.
  revert prev b; induction a as [|x a IH]; intros prev [|y b] H; try discriminate; [reflexivity|].
  injection H as Hx Hr. cbn [rlen total fold_right]. rewrite <- Hx.
  specialize (IH (class_after (p_emit x)) b Hr). unfold total in IH. lia.
Qed.
Theorem rename_len_exact prev a b : same_kinds a b -> total b <= total a -> rlen prev b <= rlen prev a.
Proof. intros H Hle. pose proof (rename_len_delta prev a b H). lia. Qed.

(* hoisting changes the KIND of the replaced tokens (a string literal becomes an identifier): the cost model does not
   see the space that may become necessary.  Witness: `return''` against `return A` - after a keyword a quote needs no
   space, a name does. *)
Definition ret_lit : list ptok := [{| p_emit := EKeyword; p_len := 6 |}; {| p_emit := EString false; p_len := 2 |}].
Definition ret_name : list ptok := [{| p_emit := EKeyword; p_len := 6 |}; {| p_emit := EIdentifier; p_len := 1 |}].
Example hoist_cost_model_ignores_spacing :
  rlen CNewLine ret_lit = 8 /\ rlen CNewLine ret_name = 8 /\ total ret_name + 1 = total ret_lit.
Proof. vm_compute. repeat split. Qed.

Lemma flag_count p refs : count p refs <= 1 -> flag p refs = count p refs.
Proof.
  unfold flag, count. induction refs as [|k refs IH]; cbn [existsb filter length]; [reflexivity|].
  destruct (p k); cbn [orb length]; intro H; [lia|apply IH, H].
Qed.
Lemma count_rebind_le_arg refs : count is_rebind refs <= count is_arg refs.
Proof. unfold count. induction refs as [|k refs IH]; cbn [filter length]; [lia|]. destruct k; cbn [is_rebind is_arg length]; lia. Qed.

Lemma text_before_simple {refs old_len} : forallb simple_ref refs = true -> text_before refs old_len = length refs * old_len.
Proof.
  induction refs as [|k refs IH]; cbn [forallb text_before fold_right length]; [reflexivity|]. intro H.
  apply andb_true_iff in H as [Hk Hr]. specialize (IH Hr). unfold text_before in IH. rewrite IH.
  destruct k; cbn [chars_before simple_ref] in *; try lia; apply Nat.eqb_eq in Hk; subst; lia.
Qed.

Lemma text_after_sum refs old_len new_len :
  text_after refs old_len new_len =
    (count is_plain_alias refs + 2 * count is_rebind refs) * old_len
    + (fold_right (fun k a => new_mentions_of k + a) 0 refs + count is_arg refs) * new_len
    + 4 * count is_plain_alias refs + 2 * count is_rebind refs.
Proof.
  unfold count. induction refs as [|k refs IH]; cbn [text_after fold_right filter length]; [lia|].
  unfold text_after in IH. rewrite IH. clear IH.
  destruct k; cbn [chars_after is_plain_alias is_rebind is_arg new_mentions_of length]; lia.
Qed.

(* the accounting identity: what the rename writes is what the three methods of rename/binding.py price; with at most
   one argument reference the flags are the counts.  (Of simple_refs, this side uses only that; declarations that list the
   name once are needed for text_before alone.) *)
Lemma text_after_priced {refs old_len new_len} : count is_arg refs <= 1 ->
  text_after refs old_len new_len =
    old_mention_count refs * old_len + new_mention_count refs * new_len + additional_byte_cost refs.
Proof.
  intro Harg. unfold old_mention_count, new_mention_count, additional_byte_cost.
  pose proof (count_rebind_le_arg refs).
  rewrite (flag_count is_arg refs Harg), (flag_count is_rebind refs), text_after_sum by lia. lia.
Qed.

Example cost_example :
  let refs := [RAliasPlain; RAliasPlain; RName; RName] in
  simple_refs refs = true /\ additional_byte_cost refs = 8 /\ old_mention_count refs = 2 /\ new_mention_count refs = 4 /\
  should_rename_refs refs 4 1 = false /\ text_before refs 4 = 16 /\ text_after refs 4 1 = 20.
Proof. vm_compute. repeat split. Qed.
