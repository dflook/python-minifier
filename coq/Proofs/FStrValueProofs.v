From PM Require Import Model.Base Model.MiniString Model.StrDecode Model.FStr Model.FStrValue.
From PM Require Import Proofs.MiniStringProofs Proofs.StrDecodeProofs Proofs.FStrProofs.
Open Scope bool_scope.
Open Scope N_scope.

(* decb on what esc_bytes writes; it has this one writer, and is analysed directly *)
Lemma decb_hex_cons long q k acc n tail : n < 16 ->
  decb long q (DHex (S (S k)) acc) (hex_digit n :: tail) = decb long q (DHex (S k) (acc * 16 + n)) tail.
Proof. intros H. cbn [decb]. rewrite (unhex_hex_digit n H). reflexivity. Qed.
Lemma decb_hex_last long q acc n tail : n < 16 ->
  decb long q (DHex 1 acc) (hex_digit n :: tail) = cons_res (acc * 16 + n) (decb long q DNorm tail).
Proof. intros H. cbn [decb]. rewrite (unhex_hex_digit n H). reflexivity. Qed.
Lemma decb_x2 long q b tail : b < 256 ->
  decb long q DNorm ([92; 120] ++ hex_fixed 2 b ++ tail) = cons_res b (decb long q DNorm tail).
Proof.
  intros H. change (decb long q (DHex 2 0) (hex_fixed 2 b ++ tail) = cons_res b (decb long q DNorm tail)).
  apply (hex_read (decb long q) 256 (decb_hex_cons long q)); [|exact H..].
  intros acc n tl Hn _. apply decb_hex_last. exact Hn.
Qed.
Lemma decb_simple long q e v tail : simple_escape e = Some v ->
  decb long q DNorm (92 :: e :: tail) = cons_res v (decb long q DNorm tail).
Proof. intros H. cbn [decb]. change (92 =? 92) with true. cbv iota. rewrite H. reflexivity. Qed.
Lemma decb_plain long q c tail : c <> q -> c <> 10 -> c <> 92 -> c <> 13 -> c <> 0 -> c < 128 ->
  decb long q DNorm (c :: tail) = cons_res c (decb long q DNorm tail).
Proof.
  intros H1 H2 H3 H4 H5 H6. cbn [decb].
  replace (c =? 92) with false by lia. replace ((c =? 13) || (c =? 0) || (128 <=? c)) with false by lia.
  replace (c =? q) with false by lia. replace (c =? 10) with false by lia. destruct long; reflexivity.
Qed.
Definition byte_val (b : N) : Prop := b < 256.
Lemma esc_bytes_dec long q b tail : b <> q -> byte_val b ->
  decb long q DNorm (esc_bytes b ++ tail) = cons_res b (decb long q DNorm tail).
Proof.
  intros Hbq Hb. unfold esc_bytes.
  destruct (N.eqb_spec b 92) as [->|H92]; [apply decb_simple; reflexivity|].
  destruct (N.eqb_spec b 10) as [->|H10]; [apply decb_simple; reflexivity|].
  destruct (N.eqb_spec b 13) as [->|H13]; [apply decb_simple; reflexivity|].
  destruct ((b =? 0) || (128 <=? b)) eqn:E.
  - apply decb_x2. exact Hb.
  - apply decb_plain; lia.
Qed.
Lemma decb_close long q rest : is_q q -> decb long q DNorm ((if long then [q; q; q] else [q]) ++ rest) = Some ([], rest).
Proof. intros [->| ->]; destruct long; reflexivity. Qed.

Section Value.
  Variable pre : text.
  Variable esc : N -> text.
  Variable D : bool -> N -> dstate -> text -> option (text * text).
  Variable valid_char : N -> Prop.
  Variable bound : N.
  Hypothesis Hesc : forall long q c, c <> q -> piece bound long q c (esc c).
  Hypothesis Hchar : forall long q c tail, c <> q -> valid_char c -> D long q DNorm (esc c ++ tail) = cons_res c (D long q DNorm tail).
  Hypothesis Hclose : forall long q rest, is_q q -> D long q DNorm ((if long then [q; q; q] else [q]) ++ rest) = Some ([], rest).

  Lemma body_dec long q cs rest : is_q q -> Forall (fun c => c <> q) cs -> Forall valid_char cs ->
    D long q DNorm (flat_map esc cs ++ (if long then [q; q; q] else [q]) ++ rest) = Some (cs, rest).
  Proof.
    intros Hq H Hv. apply (flat_map_decoded (D long q DNorm) esc); [|apply Hclose; exact Hq].
    rewrite Forall_forall in *. intros c Hc r. apply Hchar; auto.
  Qed.

  Lemma lit_value q cs rest v : lit_body q cs -> Forall valid_char cs -> lits_value_gen pre D rest v ->
    lits_value_gen pre D (lit_of pre esc q cs ++ rest) (cs ++ v).
  Proof.
    intros (Hq & Hne & Hcs) Hv Hrest. unfold lit_of, qtext. destruct (qlong q); rewrite <- !app_assoc.
    - eapply LV_long; [exact Hq | | exact Hrest]. exact (body_dec true (qc q) cs rest Hq Hcs Hv).
    - eapply LV_short; [exact Hq | | | exact Hrest].
      + apply (body_head esc bound Hesc); assumption.
      + exact (body_dec false (qc q) cs rest Hq Hcs Hv).
  Qed.

  (* the structure of the candidate knows nothing of which characters are valid: T carries that as a premise *)
  Theorem candidate_value start s : In start full_quotes -> Forall valid_char s ->
    exists txt, candidate pre esc full_quotes start s = Some txt /\ lits_value_gen pre D txt s.
  Proof.
    intros Hin Hs.
    destruct (candidate_spec pre esc (fun r v => Forall valid_char v -> lits_value_gen pre D r v)) with (start := start) (s := s)
      as (txt & E & H).
    - intros _. apply LV_nil.
    - intros r v H Hv. apply LV_space, H, Hv.
    - intros q cs r v Hb H Hv. apply Forall_app in Hv as [Hcs Hv]. apply lit_value; auto.
    - exact Hin.
    - exists txt. split; [exact E | exact (H Hs)].
  Qed.
End Value.
