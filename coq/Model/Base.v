(* Base types shared by every layer. Text and bytes are lists of code points / byte values (N). *)
From Coq Require Export List NArith ZArith Bool Lia.
Export ListNotations.

Definition text := list N.      (* Unicode code points *)
Definition bytes := list N.     (* values < 256 *)

Fixpoint text_eqb (a b : text) : bool :=
  match a, b with
  | [], [] => true
  | x :: a', y :: b' => N.eqb x y && text_eqb a' b'
  | _, _ => false
  end.

Lemma text_eqb_eq a b : text_eqb a b = true <-> a = b.
Proof.
  revert b; induction a as [|x a IH]; intros [|y b]; cbn [text_eqb]; try easy.
  rewrite andb_true_iff, N.eqb_eq, IH. split; [intros [-> ->] | intros [= -> ->]]; auto.
Qed.

Lemma text_eqb_refl a : text_eqb a a = true.
Proof. apply text_eqb_eq. reflexivity. Qed.

Definition mem_text (x : text) (l : list text) : bool := existsb (text_eqb x) l.

Lemma mem_text_In x l : mem_text x l = true <-> In x l.
Proof.
  unfold mem_text. rewrite existsb_exists. split.
  - intros [y [Hy He]]. apply text_eqb_eq in He. subst. exact Hy.
  - intro H. exists x. split; [exact H | apply text_eqb_refl].
Qed.

Lemma mem_text_app x a b : mem_text x (a ++ b) = mem_text x a || mem_text x b.
Proof. apply existsb_app. Qed.
Lemma mem_text_filter x p l : mem_text x (filter p l) = mem_text x l && p x.
Proof. apply eq_true_iff_eq. rewrite andb_true_iff, !mem_text_In, filter_In. reflexivity. Qed.

(* UTF-8 encoder (total; lone surrogates are encoded like any 3-byte code point, which CPython would reject:
   the printer never emits them) *)
Definition utf8_cp (c : N) : bytes :=
  if (c <? 128)%N then [c]
  else if (c <? 2048)%N then [192 + c / 64; 128 + c mod 64]%N
  else if (c <? 65536)%N then [224 + c / 4096; 128 + (c / 64) mod 64; 128 + c mod 64]%N
  else [240 + c / 262144; 128 + (c / 4096) mod 64; 128 + (c / 64) mod 64; 128 + c mod 64]%N.

Definition utf8 (s : text) : bytes := flat_map utf8_cp s.

Lemma utf8_cp_length c : 1 <= length (utf8_cp c).
Proof. unfold utf8_cp. repeat destruct (_ <? _)%N; cbn [length]; lia. Qed.

Lemma utf8_length_ge s : length s <= length (utf8 s).
Proof.
  unfold utf8. induction s as [|c s IH]; cbn [flat_map length]; [lia|]. rewrite app_length. pose proof (utf8_cp_length c). lia.
Qed.

(* ASCII helper: Coq string -> text, used for readable literals in generated files *)
From Coq Require Import String Ascii.
Fixpoint t (s : string) : text :=
  match s with
  | EmptyString => []
  | String c s' => N_of_ascii c :: t s'
  end.
Arguments t s%string.
