(* C07 — constant folding never changes a value, its type, or an error.
   Model/Fold.v mirrors FoldConstants.visit_BinOp over an arbitrary printer `pr`, interpreter `ev` (None = raises),
   re-parse check `reparse_ok` and `repr_fails`; the hypotheses below are explicit premises (sampled against CPython
   by the correspondence legs), never axioms. *)
From PM Require Import Model.Base Model.Fold Proofs.FoldProofs.

Section C07.
  Variable pr : ex -> text.
  Variable ev : text -> option val.
  Variable reparse_ok : ex -> bool.
  Variable repr_fails : val -> bool.
  (* a candidate Num that re-parses to itself is ONE unsigned literal token: it evaluates to a value with no sign bit *)
  Hypothesis HL : forall w x, reparse_ok (Lit w) = true -> ev (pr (Lit w)) = Some x -> nonneg x = true.
  (* '-' in front of such a token evaluates to the negation of what the token evaluates to *)
  Hypothesis HE : forall w, reparse_ok (Neg (Lit w)) = true ->
      reparse_ok (Lit w) = true /\ forall x, ev (pr (Lit w)) = Some x -> ev (pr (Neg (Lit w))) = Some (negv x).
  Hypothesis HEv : forall w y, reparse_ok (Neg (Lit w)) = true -> ev (pr (Neg (Lit w))) = Some y -> exists x, ev (pr (Lit w)) = Some x.
  (* a complex Num that re-parses to itself is a plain imaginary literal *)
  Hypothesis HRc : forall w, ty w = TComplex -> reparse_ok (Lit w) = true -> nonneg w = true.
  (* evaluation is compositional *)
  Hypothesis Cbin : forall l l' o r r', ev (pr l) = ev (pr l') -> ev (pr r) = ev (pr r') -> ev (pr (Bin l o r)) = ev (pr (Bin l' o r')).
  Hypothesis Cneg : forall a a', ev (pr a) = ev (pr a') -> ev (pr (Neg a)) = ev (pr (Neg a')).
  Hypothesis Cctx : forall c args args', Forall2 (fun a b => ev (pr a) = ev (pr b)) args args' -> ev (pr (Ctx c args)) = ev (pr (Ctx c args')).

  (* the value (type, value, sign of zero, infinities) or the raising of every expression is unchanged, at any depth and in
     any context; `=` on `option val` is identity: VFloat (FNum true 0) <> VFloat (FNum false 0), VInt 1 <> VBool true <> VFloat .. *)
  Theorem C07_fold_preserves_eval : forall e,
    ev (pr (fold pr ev reparse_ok repr_fails e)) = ev (pr e).
  Proof. exact (fold_preserves_eval pr ev reparse_ok repr_fails HL HE HEv HRc Cbin Cneg Cctx). Qed.

  Theorem C07_one_step : forall l o r,
    ev (pr (try_fold pr ev reparse_ok repr_fails l o r)) = ev (pr (Bin l o r)).
  Proof. exact (try_fold_sound pr ev reparse_ok repr_fails HL HE HEv HRc). Qed.
End C07.
Print Assumptions C07_fold_preserves_eval.
Print Assumptions C07_one_step.

(* unconditional facts about the decision procedure (any oracles whatsoever) *)
Theorem C07_no_nan_literal : forall pr ev reparse_ok repr_fails e,
  no_nan e -> no_nan (fold pr ev reparse_ok repr_fails e).
Proof. exact fold_no_nan. Qed.
Print Assumptions C07_no_nan_literal.

Theorem C07_shorter_or_untouched : forall pr ev reparse_ok repr_fails l o r,
  try_fold pr ev reparse_ok repr_fails l o r = Bin l o r \/
  length (pr (try_fold pr ev reparse_ok repr_fails l o r)) < length (pr (Bin l o r)).
Proof. exact try_fold_shorter. Qed.
Print Assumptions C07_shorter_or_untouched.

Theorem C07_div_pow_never_folded : forall pr ev reparse_ok repr_fails l r,
  try_fold pr ev reparse_ok repr_fails l Div r = Bin l Div r /\ try_fold pr ev reparse_ok repr_fails l Pow r = Bin l Pow r.
Proof. intros. unfold try_fold. destruct (negb (is_const l)), (negb (is_const r)); split; reflexivity. Qed.
Print Assumptions C07_div_pow_never_folded.

Theorem C07_only_constant_operands : forall pr ev reparse_ok repr_fails l o r,
  try_fold pr ev reparse_ok repr_fails l o r <> Bin l o r -> is_const l = true /\ is_const r = true.
Proof. intros pr ev reparse_ok repr_fails l o r. destruct (try_fold_spec pr ev reparse_ok repr_fails l o r) as [?|(v & f & A)]; [contradiction | split; apply A]. Qed.
Print Assumptions C07_only_constant_operands.

(* non-vacuity: with a table oracle for `0.5 - 1.5` (value -1.0) the model does fold, to USub(Num 1.0) *)
Definition half := VFloat (FNum false 4602678819172646912).
Definition one_half := VFloat (FNum false 4609434218613702656).
Definition one := VFloat (FNum false 4607182418800017408).
Definition ex_pr (e : ex) : text :=
  match e with Bin _ _ _ => [46;53;45;49;46;53] | Neg _ => [45;49;46] | Lit _ => [49;46] | _ => [] end%N.
Definition ex_ev (s : text) : option val :=
  if text_eqb s [46;53;45;49;46;53]%N then Some (negv one) else if text_eqb s [45;49;46]%N then Some (negv one)
  else if text_eqb s [49;46]%N then Some one else None.
Example C07_folds_somewhere :
  fold ex_pr ex_ev (fun _ => true) (fun _ => false) (Ctx 0 [Bin (Lit half) Sub (Lit one_half)]) = Ctx 0 [Neg (Lit one)].
Proof. vm_compute. reflexivity. Qed.
(* a value that only differs in the sign of zero is rejected: candidate +0.0 for an original -0.0 cannot arise, and
   strict identity distinguishes them *)
Example C07_signed_zero_distinct : VFloat (FNum true 0) <> VFloat (FNum false 0) /\ VInt 1 <> VBool true /\ py_eq (VFloat (FNum true 0)) (VFloat (FNum false 0)) = true.
Proof. repeat split; discriminate. Qed.
