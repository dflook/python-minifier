(* C12 — minifying never runs code taken from the input. *)
From Coq Require Import String.
From PM Require Import Model.Base Model.MiniString Proofs.MiniStringProofs Gen.EvalSites Model.FStr Proofs.FStrProofs.

(* For EVERY string, in normal and safe mode, with either quote character: the text MiniString hands to eval(),
   quote ++ body ++ quote, is scanned by the reference string-literal scanner as exactly one literal with nothing
   left over: no character of the input can close the literal early, a trailing backslash is always escaped. *)
Theorem C12_ministring_closed_short : forall safe q s,
  is_quote q -> scan_short q (to_short safe q s ++ [q]) = Some [].
Proof.
  intros safe q s Hq. apply (pieces_closed 1114112 false q _ s [] Hq), Forall_forall.
  intros c _. apply short_char_piece. exact Hq.
Qed.
Print Assumptions C12_ministring_closed_short.

Theorem C12_ministring_closed_long : forall safe q s,
  is_quote q -> scan_long q (to_long safe q s ++ [q; q; q]) = Some [].
Proof.
  intros safe q s Hq. apply (pieces_closed 1114112 true q _ s [] Hq), Forall_forall.
  intros c _. apply long_char_piece; [exact Hq | discriminate].
Qed.
Print Assumptions C12_ministring_closed_long.

(* f_string.Str / f_string.Bytes on Python 3.12+ (a string or bytes constant nested in an f-string replacement field):
   for EVERY value and every starting quote, the text that `__str__` hands to eval() is a sequence of complete string /
   bytes literals (each closed according to the reference scanner) separated by single spaces, and nothing else - no
   character of the value can end up outside a literal; and it contains no raw line break or NUL.
   The model is tied to f_string.py by leg Q (the texts really passed to eval, the quote lists really used). *)
Theorem C12_fstring_str_text_is_literals : forall start s, In start full_quotes ->
  exists txt, str_candidate start s = Some txt /\ lits_text txt.
Proof. exact (candidate_is_literals [] esc_str _ (or_introl eq_refl) esc_str_piece). Qed.
Print Assumptions C12_fstring_str_text_is_literals.
Theorem C12_fstring_bytes_text_is_literals : forall start s, In start full_quotes ->
  exists txt, bytes_candidate start s = Some txt /\ lits_text txt.
Proof. exact (candidate_is_literals [98] esc_bytes _ (or_intror eq_refl) esc_bytes_piece). Qed.
Print Assumptions C12_fstring_bytes_text_is_literals.
Theorem C12_fstring_escapes_have_no_raw_break : forall c,
  forallb no_raw (esc_str c) = true /\ forallb no_raw (esc_bytes c) = true.
Proof.
  (* piece_no_raw holds for any quote; all the writers ask of it is that it differs from c *)
  intro c. split; [apply (piece_no_raw 1114112 (c + 1) c), esc_str_piece | apply (piece_no_raw 256 (c + 1) c), esc_bytes_piece]; lia.
Qed.
Print Assumptions C12_fstring_escapes_have_no_raw_break.

(* the complete list of evaluation / import / file / process call sites in the package, re-read on every run,
   is exactly the reviewed list: five eval sites (MiniString x2, f_string.Str, f_string.Bytes, safe_eval), the unused
   MiniBytes, one literal_eval('...') of a constant, the CLI's open() calls, and attribute dispatch on AST class/field names *)
#[local] Open Scope string_scope.
Definition reviewed_sites : list (string * string * string) := [
  ("__main__.py", "main", "open"); ("__main__.py", "main", "open"); ("__main__.py", "main", "open");
  ("__main__.py", "main", "open"); ("__main__.py", "main", "open"); ("__main__.py", "main", "open");
  ("ast_compare.py", "compare_ast", "getattr(dynamic)"); ("ast_compare.py", "compare_ast", "getattr(dynamic)");
  ("ast_compare.py", "compare_ast", "getattr(dynamic)"); ("ast_compare.py", "compare_ast", "getattr(dynamic)");
  ("ast_compare.py", "compare_ast", "getattr(dynamic)");
  ("ast_compat.py", "Ellipsis.__new__", "literal_eval");
  ("expression_printer.py", "ExpressionPrinter.visit", "getattr(dynamic)");
  ("f_string.py", "Bytes.__str__", "eval");
  ("f_string.py", "Str.__str__", "eval");
  ("ministring.py", "MiniBytes.__str__", "eval");
  ("ministring.py", "MiniString.__str__", "eval");
  ("ministring.py", "MiniString.__str__", "eval");
  ("rename/rename_literals.py", "replace", "setattr(dynamic)");
  ("transforms/constant_folding.py", "safe_eval", "eval");
  ("transforms/suite_transformer.py", "NodeVisitor.visit", "getattr(dynamic)");
  ("transforms/suite_transformer.py", "NodeVisitor.visit_Constant", "getattr(dynamic)");
  ("transforms/suite_transformer.py", "SuiteTransformer.generic_visit", "setattr(dynamic)")
].
Theorem C12_eval_sites_are_the_reviewed_ones : eval_sites = reviewed_sites.
Proof. reflexivity. Qed.
Print Assumptions C12_eval_sites_are_the_reviewed_ones.

(* only number and True/False/None constants can reach the folding eval, which runs with fresh empty namespaces *)
Theorem C12_fold_operands_are_constants :
  fold_left_operand_kinds = ["Num"; "NameConstant"] /\ fold_right_operand_kinds = ["Num"; "NameConstant"] /\
  fold_guards_precede_evaluation = true /\ safe_eval_uses_fresh_empty_namespaces = true.
Proof. repeat split. Qed.
Print Assumptions C12_fold_operands_are_constants.

(* non-vacuity / illustration: a string built to break out of the quotes stays one literal *)
#[local] Close Scope string_scope.
Example C12_attack_stays_closed :
  let s := t "'+__import__('os').system('id')+'\" in
  scan_short 39 (to_short false 39 s ++ [39%N])%list = Some [] /\ to_short false 39 (t "a'\") = t "a\'\\".
Proof. vm_compute. split; reflexivity. Qed.
