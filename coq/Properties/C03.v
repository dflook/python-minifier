(* C03 — renaming preserves which binding every name refers to.
   PROVED here: the name assignment (NameAssigner, Model/Renamer.v) over ANY table of bindings, for an ARBITRARY cost
   model `should` and an ARBITRARY name source `pick` that only has to return a name outside the set it is given.
   PROVED as well: the lookup of resolve_names.get_binding (clause list regenerated from the source), run on the
   per-namespace data the binder produces, finds the namespace CPython's symtable pass assigns the name to - for every
   chain of enclosing namespaces - except for the designed merge of names both bound and loaded in a class body.
   NOT proved (checked per program by leg A and the resolver-based oracle, see DESIGN 0.2): that mapper / bind_names put
   every occurrence in the right namespace and every binding operation in the right per-namespace set. *)
From Coq Require Import String.
From PM Require Import Model.Base Model.Renamer Proofs.RenamerProofs Model.RenamerRun Gen.NameGen Proofs.NameGenProofs Model.Resolve Proofs.ResolveProofs.
From PM Require Import Model.Scope Proofs.ScopeProofs.
Open Scope bool_scope.

(* two different bindings that are visible in a common namespace (their reservation scopes intersect) end up with the
   same name only if both kept their original name and had reserved it from the start *)
Theorem C03_assignment_separates : forall pick should prefix_globals,
  (forall p l, ~ In (pick p l) l) ->
  forall bs rg b1 b2 n s,
    Forall wf_binding bs -> NoDup (map b_id bs) ->
    In b1 bs -> In b2 bs -> b_id b1 <> b_id b2 ->
    In (b_id b1, Some n) (assign pick should prefix_globals bs rg) -> In (b_id b2, Some n) (assign pick should prefix_globals bs rg) ->
    In s (b_scope b1) -> In s (b_scope b2) -> pinned b1 n /\ pinned b2 n.
Proof. exact assign_separates. Qed.
Print Assumptions C03_assignment_separates.

(* a binding that changes its name gets a name that is assigned in no namespace of its reservation scope *)
Theorem C03_new_name_is_fresh : forall pick should prefix_globals,
  (forall p l, ~ In (pick p l) l) ->
  forall b a n, decide pick should prefix_globals b a = Some n -> b_name b <> Some n -> ~ In n (names_in a (b_scope b)).
Proof. exact decide_changed_is_fresh. Qed.
Print Assumptions C03_new_name_is_fresh.

(* no binding visible at module level takes a preserved-global name that is not its own *)
Theorem C03_reserved_globals_avoided : forall pick should prefix_globals,
  (forall p l, ~ In (pick p l) l) ->
  forall bs rg b n, Forall wf_binding bs -> NoDup (map b_id bs) -> In b bs -> In 0%N (b_scope b) -> In n rg ->
    In (b_id b, Some n) (assign pick should prefix_globals bs rg) -> pinned b n.
Proof. exact assign_avoids_reserved_globals. Qed.
Print Assumptions C03_reserved_globals_avoided.

(* RESOLUTION IS PRESERVED (abstract namespace trees: a name is looked up in the namespace of the reference, then in
   its parent, and so on - a superset of the scopes CPython visits).  If the finished table is separated (which the
   assignment guarantees: C03_assignment_gives_separation below), every namespace holds at most one binding per original name, every binding's
   own namespace is in its reservation scope, every namespace between a reference and the binding's namespace is in
   the reservation scope, and the ORIGINAL spelling resolved to the binding from the reference's namespace, then the
   NEW spelling resolves to the same binding: no capture by a renamed or pinned binding on the way, no merging.
   The premises about the table (chain covered by the scope, owner in scope) are checked on every real table by leg R. *)
Theorem C03_resolution_preserved : forall par bs,
  separated bs -> unique_names bs -> unique_ids bs -> owner_in_scope bs ->
  forall fuel ns b n0 n l,
    In b bs -> r_orig b = Some n0 -> r_final b = Some n ->
    chain fuel par ns (r_owner b) = Some l -> (forall m, In m l -> In m (r_scope b)) ->
    resolve fuel par bs r_orig ns n0 = Some (r_id b) ->
    resolve fuel par bs r_final ns n = Some (r_id b).
Proof. exact resolution_preserved. Qed.
Print Assumptions C03_resolution_preserved.

(* the same, with the coverage premise discharged: the reservation scope renamer.reservation_scope builds (the owner and
   every namespace walked from each reference site up to the owner; `rscope`, compared with the real sets by leg R)
   contains the whole walk, so every reference site of every binding keeps resolving to it under the new spelling *)
Theorem C03_resolution_preserved_by_reservation_scope : forall par bs,
  separated bs -> unique_names bs -> unique_ids bs ->
  forall fuel (sites : rb -> list N),
    (forall b, In b bs -> forall m, In m (rscope fuel par (r_owner b) (sites b)) -> In m (r_scope b)) ->
    forall ns b n0 n,
      In b bs -> In ns (sites b) -> r_orig b = Some n0 -> r_final b = Some n ->
      chain fuel par ns (r_owner b) <> None ->
      resolve fuel par bs r_orig ns n0 = Some (r_id b) ->
      resolve fuel par bs r_final ns n = Some (r_id b).
Proof.
  intros par bs Hsep Hun Hid fuel sites Hsc ns b n0 n Hb Hns Ho Hf Hch Hres.
  destruct (chain fuel par ns (r_owner b)) as [l|] eqn:E; [|contradiction].
  eapply (resolution_preserved par bs Hsep Hun Hid); eauto.
  - intros c Hc. apply (Hsc c Hc). apply rscope_owner.
  - intros m Hm. apply (Hsc b Hb). eapply rscope_covers; eauto.
Qed.
Print Assumptions C03_resolution_preserved_by_reservation_scope.

Theorem C03_assignment_gives_separation : forall pick should prefix_globals,
  (forall p l, ~ In (pick p l) l) ->
  forall owner bs rg, Forall wf_binding bs -> NoDup (map b_id bs) ->
    separated (table owner (assign pick should prefix_globals bs rg) bs).
Proof.
  intros pick should prefix_globals Hp owner bs rg Hwf Hnd b1 b2 s n H1 H2 Hne S1 S2 F1 F2.
  unfold table in H1, H2. apply in_map_iff in H1 as (x1 & <- & Hx1). apply in_map_iff in H2 as (x2 & <- & Hx2).
  cbn [r_id r_scope r_final r_orig] in *.
  apply final_of_in in F1, F2.
  destruct (assign_separates pick should prefix_globals Hp bs rg x1 x2 n s Hwf Hnd Hx1 Hx2 Hne F1 F2 S1 S2) as [[A _] [B _]].
  auto.
Qed.
Print Assumptions C03_assignment_gives_separation.

(* the generated names (all of length 1 and 2; the stream is re-read from name_generator.py and the interpreter's
   keyword / builtin tables on every run) are identifiers and are neither keywords nor builtins *)
Definition ident_start (c : N) : bool := ((65 <=? c) && (c <=? 90) || (97 <=? c) && (c <=? 122))%N.
Definition ident_char (c : N) : bool := (ident_start c || (48 <=? c) && (c <=? 57) || (c =? 95))%N.
Definition valid_new_name (n : text) : bool :=
  match n with c :: rest => ident_start c && forallb ident_char rest | [] => false end && negb (mem_text n reserved_words).
Theorem C03_generated_names_valid : forallb valid_new_name name_stream_prefix = true.
Proof.
  (* name_stream_prefix is the filtered stream of NameGenProofs over the two regenerated alphabets, up to unfolding *)
  apply forallb_filter, (stream_shape valid_first valid_rest ident_start ident_char); vm_compute; reflexivity.
Qed.
Print Assumptions C03_generated_names_valid.
Theorem C03_generated_names_distinct : NoDup name_stream_prefix.
Proof. apply NoDup_filter, stream_distinct; apply NoDup_N; vm_compute; reflexivity. Qed.
Print Assumptions C03_generated_names_distinct.

(* for every chain of enclosing blocks (module outermost), every name: the minifier's bottom-up lookup over its own
   per-namespace data (the `view` of each block) returns the depth of the namespace that the top-down symtable pass
   (analyze_block / analyze_name) classifies the name into, unless the name is both bound and loaded in a class body *)
Theorem C03_lookup_refines_symtable : forall outer f x,
  wf_chain outer f = true -> merged_in_class f x = false ->
  min_owner x (chain_view outer f) = ref_owner outer f x.
Proof. exact lookup_refines_symtable. Qed.
Print Assumptions C03_lookup_refines_symtable.

(* the designed exception: such a name is attributed to the binding the code AROUND the class sees, while CPython makes
   it local to the class (the binder pins the merged binding: checked by leg R and the interface oracle of C04) *)
Theorem C03_class_body_merge : forall outer f x,
  wf_chain outer f = true -> merged_in_class f x = true ->
  min_owner x (chain_view outer f) = bound_below outer 0 none_bound x /\ ref_owner outer f x = length outer.
Proof. exact class_body_merge. Qed.
Print Assumptions C03_class_body_merge.

(* a reference never resolves to a namespace nested deeper than the one it is written in *)
Theorem C03_owner_encloses_reference : forall outer f x, wf_chain outer f = true -> ref_owner outer f x <= length outer.
Proof. intros outer f x _. apply ref_owner_le. Qed.
Print Assumptions C03_owner_encloses_reference.

(* non-vacuity: a table with a parameter pinned to `x`, a local and a comprehension variable sharing namespace 1 *)
Definition ex_bs : list binding := [
  {| b_id := 0; b_kind := KName; b_name := Some (t "f"); b_scope := [0%N]; b_allow := false; b_reserved := Some (t "f"); b_module := true; b_mentions := 1 |};
  {| b_id := 1; b_kind := KName; b_name := Some (t "x"); b_scope := [1%N; 2%N]; b_allow := true; b_reserved := Some (t "x"); b_module := false; b_mentions := 3 |};
  {| b_id := 2; b_kind := KName; b_name := Some (t "total"); b_scope := [1%N]; b_allow := true; b_reserved := None; b_module := false; b_mentions := 4 |};
  {| b_id := 3; b_kind := KName; b_name := Some (t "item"); b_scope := [2%N]; b_allow := true; b_reserved := None; b_module := false; b_mentions := 2 |} ]%N.
Example C03_example :
  forallb wf_bindingb ex_bs = true /\
  run_real [] false ex_bs [] = [(2, Some (t "total")); (1, Some (t "x")); (3, Some (t "item")); (0, Some (t "f"))]%N /\
  run_real [(1, [true]); (2, [true]); (3, [true])]%N false ex_bs [] = [(2, Some (t "A")); (1, Some (t "B")); (3, Some (t "A")); (0, Some (t "f"))]%N.
Proof. vm_compute. repeat split. Qed.
