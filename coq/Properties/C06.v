(* C06 — hoisted literals are bound once, before use, to an identical value. *)
From PM Require Import Model.Base Model.Hoist Proofs.HoistProofs Model.Renamer Proofs.RenamerProofs.

(* util.insert: the assignment goes after the maximal prefix of docstring-position strings and __future__ imports, before
   every other statement; that prefix and the rest of the body are unchanged *)
Theorem C06_first : forall new l,
  exists pre post, insert new l = pre ++ new :: post /\ pre ++ post = l /\ forallb is_prefix_stmt pre = true /\
    match post with [] => True | x :: _ => is_prefix_stmt x = false end.
Proof.
  intros new l. exists (takewhile is_prefix_stmt l), (dropwhile is_prefix_stmt l). repeat split.
  - apply insert_spec.
  - apply take_drop.
  - apply takewhile_all.
  - destruct (dropwhile is_prefix_stmt l) eqn:E; [exact I|]. eapply dropwhile_head; eauto.
Qed.
Print Assumptions C06_first.

(* place_bindings: the function/module namespace chosen for the assignment lies on the namespace path of EVERY use *)
Theorem C06_placement : forall paths q, In q paths -> is_prefix (place paths) q = true.
Proof.
  intros [|p rest] q; [intros []|]. intro H.
  pose proof (is_prefix_refl (fold_left common_path rest p)) as R. rewrite is_prefix_fold in R.
  apply andb_true_iff in R as [Rp Rr]. destruct H as [<-|H]; [exact Rp|]. rewrite forallb_forall in Rr. now apply Rr.
Qed.
Print Assumptions C06_placement.
(* every path starts at the module, so the chosen path is never empty *)
Theorem C06_placement_exists : forall paths,
  paths <> [] -> Forall (fun p => exists t, p = 0%N :: t) paths -> exists t, place paths = 0%N :: t.
Proof.
  intros [|p rest]; [congruence|]. intros _ [[t ->] Hrest]%Forall_cons_iff. cbn [place].
  revert t. induction Hrest as [|q rest [tq ->] _ IH]; intro t; cbn [fold_left]; [eauto|].
  rewrite common_path_head. apply IH.
Qed.
Print Assumptions C06_placement_exists.

(* HoistedValue: two literals share an alias only if they have the same type AND the same value *)
Theorem C06_value_key : forall a b, hv_eq a b = true <-> a = b.
Proof.
  intros [ta va] [tb vb]. unfold hv_eq. cbn [fst snd]. split.
  - destruct ta, tb; try discriminate; now intros ->%text_eqb_eq.
  - intros [= -> ->]. destruct tb; apply text_eqb_refl.
Qed.
Print Assumptions C06_value_key.

(* the alias name is separated from every other binding visible where it is used (a HoistedBinding is never pinned:
   it has no name of its own), hence assigned exactly once and never captured *)
Theorem C06_alias_name_unique : forall pick should prefix_globals,
  (forall p l, ~ In (pick p l) l) ->
  forall bs rg h b n s,
    Forall wf_binding bs -> NoDup (map b_id bs) -> In h bs -> In b bs -> b_id h <> b_id b -> b_kind h = KHoisted ->
    In (b_id h, Some n) (assign pick should prefix_globals bs rg) -> In s (b_scope h) -> In s (b_scope b) ->
    ~ In (b_id b, Some n) (assign pick should prefix_globals bs rg).
Proof.
  intros pick should pg Hp bs rg h b n s Hwf Hnd Hh Hb Hne Hk Rh Sh Sb Rb.
  destruct (assign_separates pick should pg Hp bs rg h b n s Hwf Hnd Hh Hb Hne Rh Rb Sh Sb) as [[Hn _] _].
  rewrite Forall_forall in Hwf. destruct (Hwf h Hh) as [_ Hw]. unfold is_name_binding in Hw. rewrite Hk in Hw.
  rewrite (Hw eq_refl) in Hn. discriminate.
Qed.
Print Assumptions C06_alias_name_unique.

Example C06_example :
  insert (IOther 9) [IDocStr 1; IFuture; IOther 2; IDocStr 3] = [IDocStr 1; IFuture; IOther 9; IOther 2; IDocStr 3] /\
  place [[0;3;5]; [0;3;6]; [0;3]]%N = [0;3]%N /\ hv_eq (TStr, [97]%N) (TBytes, [97]%N) = false.
Proof. vm_compute. repeat split. Qed.
