(* C14 — the command line tool never emits more bytes than it was given. *)
From Coq Require Import String.
From PM Require Import Model.CliBase Gen.Cli Proofs.CliSpec Proofs.CliProofs.

(* every byte string the tool writes to stdout, to --output or back in place, on all routes *)
Theorem C14_never_larger : forall api fs env stdin a e b,
  truthy env = false ->
  In e (fst (cli api fs env stdin a)) -> emitted_bytes e = Some b ->
  exists src fn,
    ((src = stdin /\ fn = t "stdin" /\ a_path a = [t "-"]) \/
     (In (WPath fn) (source_modules fs a) /\ fs_read fs fn = Some src)) /\
    length b <= length src /\
    ((exists m, api src fn (opts_of a) = ApiOk m /\ b = utf8 m /\ length (utf8 m) <= length src) \/
     (exists m, api src fn (opts_of a) = ApiOk m /\ length src < length (utf8 m) /\ b = src)).
Proof.
  intros api fs env stdin a e b He Hin Hb.
  apply cli_effects in Hin as [_ [(p & [->| ->])|(src & fn & b' & Hsrc & Hd & Hin)]]; try discriminate.
  apply deliver_In in Hin.
  assert (b' = b) as -> by (subst e; destruct (a_in_place a), (truthy (a_output a)); cbn in Hb; congruence).
  exists src, fn. split; [exact Hsrc|].
  apply delivered_inv in Hd as (m & Hm & [[-> Hle]|(-> & Hlt & _)]).
  - split; [exact (Hle He)|]. left. exists m. auto.
  - split; [lia|]. right. exists m. auto.
Qed.
Print Assumptions C14_never_larger.

Theorem C14_in_place_growing_untouched : forall api fs env a p src es st q b,
  a_in_place a = true -> fs_read fs p = Some src -> do_minify api env src p a = DmNotBeneficial ->
  file_step api fs env a p = (es, st) -> ~ In (EWrite q b) es.
Proof.
  intros api fs env a p src es st q b.
  unfold file_step, announce. intros Hi Hr Hd H. rewrite Hr, Hd, Hi in H. injection H as <- <-.
  rewrite orb_true_r. intros [H|[H|[]]]; discriminate.
Qed.
Print Assumptions C14_in_place_growing_untouched.

Theorem C14_override_only : forall api src fn a env,
  (truthy env = false -> do_minify api env src fn a = do_minify api None src fn a) /\
  (truthy env = true -> forall m, api src fn (opts_of a) = ApiOk m -> do_minify api env src fn a = DmOk (utf8 m)).
Proof.
  intros api src fn a env.
  rewrite !do_minify_any. unfold size_rule. split.
  - intros ->. reflexivity.
  - intros -> m ->. reflexivity.
Qed.
Print Assumptions C14_override_only.

(* the compared quantities are byte lengths: a 1-code-point, 2-byte result against a 1-byte source is "larger" *)
Example C14_bytes_not_characters :
  size_rule None [97%N] (ApiOk [233%N]) = DmNotBeneficial /\ env_var_consulted = t "PYMINIFY_FORCE_BEST_EFFORT".
Proof. vm_compute. split; reflexivity. Qed.
