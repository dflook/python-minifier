(* C05 — each option performs only its documented rewrite, only where it is valid.
   Statement skeletons (Model/Struct.v) mirror the suite transformers; the stage list and gates of minify() are re-read
   from the source on every run (Gen/Pipeline.v). *)
From Coq Require Import String.
From PM Require Import Model.Base Model.PipelineBase Gen.Pipeline Model.Struct Proofs.StructProofs Model.ControlFlow Proofs.ControlFlowProofs.

(* --- the four "filter the suite" transformers: the output equals the input once the documented rewrite is erased from
       both (cl er = erase every statement er accepts, at every depth, in every suite incl. except/match bodies) --- *)
Theorem C05_remove_pass : forall p, cl er_pass (module_suite drop_pass p) = cl er_pass p.
Proof. exact (module_canon_zero stable_pass). Qed.
Print Assumptions C05_remove_pass.
Theorem C05_remove_literal_statements : forall p, cl drop_literal (module_suite drop_literal p) = cl drop_literal p.
Proof. apply module_canon; [auto|reflexivity|apply stable_literal]. Qed.
Print Assumptions C05_remove_literal_statements.
Theorem C05_docstring_kept_when_doc_is_used : forall p, lit_transform true p = p.
Proof. reflexivity. Qed.
Print Assumptions C05_docstring_kept_when_doc_is_used.
Theorem C05_remove_asserts : forall p, cl er_assert (module_suite drop_assert p) = cl er_assert p.
Proof. exact (module_canon_zero stable_assert). Qed.
Print Assumptions C05_remove_asserts.
Theorem C05_remove_debug : forall p, cl er_debug (module_suite drop_debug p) = cl er_debug p.
Proof. exact (module_canon_zero stable_debug). Qed.
Print Assumptions C05_remove_debug.
(* asserts and debug together leave exactly what `python -O` runs: an `if __debug__:` with an else branch is kept *)
Theorem C05_equals_python_O : forall p,
  cl er_optimise (module_suite drop_debug (module_suite drop_assert p)) = cl er_optimise p.
Proof.
  (* each transformer removes only what er_optimise erases, and er_optimise is stable: first debug, then asserts *)
  intro p. transitivity (cl er_optimise (module_suite drop_assert p)).
  - apply module_canon; [|reflexivity|apply stable_optimise]. intros s H. unfold er_optimise. rewrite H, orb_true_r. reflexivity.
  - apply module_canon; [|reflexivity|apply stable_optimise]. intros s H. unfold er_optimise. rewrite H. reflexivity.
Qed.
Print Assumptions C05_equals_python_O.
Theorem C05_debug_only_documented_forms : forall s, drop_debug s = documented_debug_if s.
Proof.
  destruct s as [|k m o u]; [reflexivity|]. destruct k as [t| | | | | |]; try reflexivity.
  destruct t as [|[|] [| | |] [| |]|]; reflexivity.
Qed.
Print Assumptions C05_debug_only_documented_forms.

(* generic statement for ANY suite-filtering transformer (drop) and ANY erasure predicate er containing it *)
Theorem C05_suite_filter_generic : forall drop er,
  (forall s, drop s = true -> er s = true) -> er zero_stmt = true -> (forall s, er (visit drop s) = er s) ->
  forall s, canon er (visit drop s) = canon er s.
Proof. exact visit_canon. Qed.
Print Assumptions C05_suite_filter_generic.

Theorem C05_suites_nonempty : forall drop l, suite drop l <> [].
Proof. exact suite_nonempty. Qed.
Print Assumptions C05_suites_nonempty.
Theorem C05_nothing_to_do_is_identity : forall drop s, no_target drop s -> visit drop s = s.
Proof. exact visit_identity. Qed.
Print Assumptions C05_nothing_to_do_is_identity.

(* imports are merged without reordering, never across a star import, another module or another statement:
   the sequence of (kind, module, level, name) atoms and other statements of every suite is unchanged *)
Theorem C05_combine_imports_order : forall l, atoms (combine_from None [] (combine_import [] l)) = atoms l.
Proof. intro l. rewrite combine_from_atoms by reflexivity. rewrite combine_import_atoms. reflexivity. Qed.
Print Assumptions C05_combine_imports_order.

(* strip_object is what RemoveObject (obj_visit) does to the kind of a block: StructProofs.obj_visit_block *)
Theorem C05_remove_object_only_object : forall k id bases, k = BClass id bases ->
  exists bases', strip_object k = BClass id bases' /\ (forall b, In b bases' <-> In b bases /\ fst b = false).
Proof. intros k id bases ->. eexists. split; [reflexivity|]. intro b. rewrite filter_In, negb_true_iff. reflexivity. Qed.
Print Assumptions C05_remove_object_only_object.

Theorem C05_return_none_partial : forall k,
  ret_visit (Simple k) = match k with KReturn RNoneConst => Simple (KReturn RBare) | _ => Simple k end.
Proof. reflexivity. Qed.
Print Assumptions C05_return_none_partial.

(* RemoveExplicitReturnNone, semantically (Model/ControlFlow.v: atoms are events, branching is decided by an oracle, no
   exceptions): calling a function whose body was rewritten (`return None` -> `return` at every depth, the bare `return`
   at the very end dropped, `0` left in an otherwise empty body) produces the same events in the same order, returns the
   same value and takes the same branches as calling the original - for every body and every oracle; fuel is only the
   recursion bound of the interpreter *)
Theorem C05_return_none_preserves_calls : forall body f o r,
  (call f o body = Some r -> call (S f) o (ret_body body) = Some r) /\
  (call f o (ret_body body) = Some r -> call (S (S f)) o body = Some r).
Proof. split; [apply ret_body_call_fwd | apply ret_body_call_bwd]. Qed.
Print Assumptions C05_return_none_preserves_calls.

(* --- each transformer is called under exactly its own switch (statement list of minify(), regenerated) --- *)
#[local] Open Scope string_scope.
Definition documented_switch : list (string * string) := [
  ("RemoveLiteralStatements", "remove_literal_statements"); ("CombineImports", "combine_imports");
  ("RemovePass", "remove_pass"); ("RemoveObject", "remove_object_base"); ("RemoveAsserts", "remove_asserts");
  ("RemoveDebug", "remove_debug"); ("RemoveExplicitReturnNone", "remove_explicit_return_none");
  ("FoldConstants", "constant_folding"); ("remove_no_arg_exception_call", "remove_builtin_exception_brackets");
  ("rename_literals", "hoist_literals"); ("remove_posargs", "convert_posargs_to_args")
].
(* each is called once, under its switch alone or under its switch and `not module.tainted` *)
Lemma documented_switch_gates :
  Forall (fun cs => gates_of (fst cs) minify_body = [GOpt (snd cs)] \/
                    gates_of (fst cs) minify_body = [GAnd (GOpt (snd cs)) (GNot GTainted)]) documented_switch.
Proof. repeat (apply Forall_cons; [(left + right); reflexivity|]). apply Forall_nil. Qed.
Theorem C05_switch_off_means_not_called :
  Forall (fun cs => forall O tainted ann, O (snd cs) = false -> stage_runs minify_body O tainted ann (fst cs) = false) documented_switch.
Proof.
  eapply Forall_impl; [|exact documented_switch_gates]. intros cs E O tainted ann H. unfold stage_runs.
  destruct E as [-> | ->]; cbn; rewrite H; reflexivity.
Qed.
Print Assumptions C05_switch_off_means_not_called.
Theorem C05_switch_on_means_called :
  Forall (fun cs => forall O ann, O (snd cs) = true -> stage_runs minify_body O false ann (fst cs) = true) documented_switch.
Proof.
  eapply Forall_impl; [|exact documented_switch_gates]. intros cs E O ann H. unfold stage_runs.
  destruct E as [-> | ->]; cbn; rewrite H; reflexivity.
Qed.
Print Assumptions C05_switch_on_means_called.
Theorem C05_annotations_gate :
  forall O tainted ann, stage_runs minify_body O tainted ann "RemoveAnnotations" = ann.
Proof. lazy. now destruct ann. Qed.
Print Assumptions C05_annotations_gate.
Theorem C05_stage_order :
  stage_order minify_body =
  ["add_parent"; "add_namespace"; "RemoveLiteralStatements"; "CombineImports"; "RemoveAnnotations"; "RemovePass"; "RemoveObject";
   "RemoveAsserts"; "RemoveDebug"; "RemoveExplicitReturnNone"; "FoldConstants"; "bind_names"; "resolve_names";
   "remove_no_arg_exception_call"; "allow_rename_locals"; "allow_rename_globals"; "rename_literals"; "rename"; "remove_posargs"].
Proof. reflexivity. Qed.
Print Assumptions C05_stage_order.

#[local] Close Scope string_scope.
Example C05_example :
  let f := Block (BFunc 1) [[Simple KPass; Block (BIf TDebugName) [[Simple (KOther 5)]] [[]] []]] [] [] in
  module_suite drop_pass [f] = [Block (BFunc 1) [[Block (BIf TDebugName) [[Simple (KOther 5)]] [[]] []]] [] []] /\
  module_suite drop_debug (module_suite drop_pass [f]) = [Block (BFunc 1) [[zero_stmt]] [] []].
Proof. vm_compute. split; reflexivity. Qed.
