(* C08 — every compilable module is minified without error into a compilable module.
   Coq part: (1) nothing precedes ast.parse in minify(), so a source that does not parse surfaces the interpreter's
   SyntaxError; (2) the self-check cannot fail for the operator core (C02 round trip); (3) suites are never left empty
   by the suite transformers (C05); (4) generated names are valid identifiers, never keywords or builtins, and two
   bindings visible together never share a name unless pinned (C03).  The universally quantified statement
   `compiles S -> compiles (minify S O)` is NOT proved: it is decided by the compile oracle. *)
From PM Require Import Model.Base Model.PipelineBase Gen.Pipeline Model.Syntax Proofs.SyntaxProofs
  Model.Struct Proofs.StructProofs Model.Renamer Proofs.RenamerProofs.

Theorem C08_parse_comes_first :
  exists rest, minify_body = PFilename :: PParse :: rest.
Proof. eexists. reflexivity. Qed.
Print Assumptions C08_parse_comes_first.

Theorem C08_self_check_passes_on_operator_core : forall e,
  exists n, forall fuel, fuel >= n -> pexpr fuel 0 (pr e) = Some (e, []).
Proof. intro e. exists (need e + 4). apply roundtrip. Qed.
Print Assumptions C08_self_check_passes_on_operator_core.

Theorem C08_suites_never_empty : forall drop l, suite drop l <> [].
Proof. exact suite_nonempty. Qed.
Print Assumptions C08_suites_never_empty.

Theorem C08_no_two_visible_bindings_share_a_new_name : forall pick should prefix_globals,
  (forall p l, ~ List.In (pick p l) l) ->
  forall bs rg b1 b2 n s,
    Forall wf_binding bs -> NoDup (map b_id bs) -> List.In b1 bs -> List.In b2 bs -> b_id b1 <> b_id b2 ->
    List.In (b_id b1, Some n) (assign pick should prefix_globals bs rg) -> List.In (b_id b2, Some n) (assign pick should prefix_globals bs rg) ->
    List.In s (b_scope b1) -> List.In s (b_scope b2) -> pinned b1 n /\ pinned b2 n.
Proof. exact assign_separates. Qed.
Print Assumptions C08_no_two_visible_bindings_share_a_new_name.
