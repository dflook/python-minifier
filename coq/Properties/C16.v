(* C16 — shebang, source encoding and line endings.  The two regular expressions of _find_shebang and the position of
   the shebang epilogue in minify() are re-read from /repo on every run (Gen/Pipeline.v). *)
From Coq Require Import String.
From PM Require Import Model.CliBase Model.PipelineBase Gen.Pipeline Model.Shebang Proofs.ShebangProofs Proofs.CliSpec Proofs.CliProofs.
Open Scope bool_scope.

(* for every text: matching the bytes pattern on the UTF-8 encoding gives the UTF-8 encoding of the text match *)
Theorem C16_bytes_text_agree : forall s,
  find_shebang_bytes (utf8 s) = option_map utf8 (find_shebang_text s).
Proof.
  (* the text and the bytes pattern are one regex: `#`, `!` (ASCII), then a starred class that excludes ASCII characters only *)
  intro s. eapply re_match_utf8 with (pre := [_; _]).
  - reflexivity.
  - repeat constructor; now apply ascii_only_lit.
  - apply beyond_ascii_notin. repeat constructor.
Qed.
Print Assumptions C16_bytes_text_agree.

(* for every text: the line that is re-attached is exactly the first physical line (ends at the first \n or \r) *)
Theorem C16_first_line : forall s,
  starts_shebang s = true -> find_shebang_text s = Some (first_line s).
Proof. intros s H. now rewrite find_shebang_text_spec, H. Qed.
Print Assumptions C16_first_line.

Theorem C16_output : forall s preserve minified,
  attach_shebang preserve (find_shebang_text s) minified =
  if preserve && starts_shebang s then first_line s ++ [10%N] ++ minified else minified.
Proof.
  intros s preserve minified. unfold attach_shebang. rewrite find_shebang_text_spec. destruct preserve, (starts_shebang s); reflexivity.
Qed.
Print Assumptions C16_output.

Theorem C16_epilogue_position :
  exists pre, minify_body = pre ++ [PUnparse; PShebang (GIsTrue "preserve_shebang"); PReturn] /\
    forall st, In st pre -> match st with PShebang _ | PUnparse | PReturn => False | _ => True end.
Proof.
  exists (firstn (length minify_body - 3) minify_body). split; [vm_compute; reflexivity|].
  assert (H : forallb (fun st => match st with PShebang _ | PUnparse | PReturn => false | _ => true end)
                (firstn (length minify_body - 3) minify_body) = true) by (vm_compute; reflexivity).
  rewrite forallb_forall in H. intros st Hst. specialize (H st Hst). destruct st; try exact I; discriminate.
Qed.
Print Assumptions C16_epilogue_position.

(* the only encoding the command line tool applies to the result is UTF-8 *)
Theorem C16_utf8_output : forall env src r b,
  size_rule env src r = DmOk b -> exists m, r = ApiOk m /\ b = utf8 m.
Proof.
  intros env src r b H. pose proof (size_rule_inv env src r) as C. rewrite H in C. destruct C as (m & Hm & Hb & _).
  exists m. split; assumption.
Qed.
Print Assumptions C16_utf8_output.

Example C16_cr_only : find_shebang_text (t "#!/bin/sh" ++ [13%N] ++ t "print(1)") = Some (t "#!/bin/sh").
Proof. vm_compute. reflexivity. Qed.
Example C16_crlf_multibyte :
  find_shebang_bytes (utf8 ([35;33;233;8364]%N ++ [13;10]%N ++ t "x")) = Some (utf8 [35;33;233;8364]%N).
Proof. vm_compute. reflexivity. Qed.
