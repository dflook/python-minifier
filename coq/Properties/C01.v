(* C01 — the minified module behaves exactly like the original (safe options).
   PROVED here, on MiniPy (Model/MiniPy.v: module-level code with integers, opaque strings, variables, arithmetic and
   comparisons, assignment, del, print, pass, expression statements, if/else, while; NameError/TypeError as terminating
   exceptions; outcome = printed events, ending, final namespace): each rewrite of the safe pipeline that exists in this
   core preserves the outcome at the same fuel.  Functions, classes, closures, generators, with/try, imports are NOT in
   the core: for them only the execution-differential oracle applies (DESIGN 5.1). *)
From PM Require Import Model.Base Model.MiniPy Proofs.MiniPyProofs.
From PM Require Proofs.ControlFlowProofs.

Theorem C01_remove_pass_sound : forall fuel p, run fuel (remove_pass p) = run fuel p.
Proof.
  intros fuel p. unfold run, remove_pass. symmetry. apply osim_eq. apply rp_suite_sim; [|reflexivity].
  apply Forall_forall. intros s _. apply rp_stmt_sound.
Qed.
Print Assumptions C01_remove_pass_sound.

(* FoldConstants (integer arithmetic): value or error of every expression in every namespace *)
Theorem C01_fold_sound : forall e st, eval (fold_expr e) st = eval e st.
Proof. exact fold_expr_sound. Qed.
Print Assumptions C01_fold_sound.

(* renaming with an injective map (what C03 guarantees): same events, same ending, the final namespace renamed *)
Theorem C01_rename_sound : forall r, (forall a b, r a = r b -> a = b) ->
  forall fuel p, run fuel (map (ren_stmt r) p) = ren_res r (run fuel p).
Proof. exact rename_sound. Qed.
Print Assumptions C01_rename_sound.

(* hoisting a string literal into a name that does not occur in the module: same events, same ending, the final
   namespace is the original one plus the alias *)
Theorem C01_hoist_sound : forall A s fuel p, forallb (fresh_stmt A) p = true -> orel A s (run fuel p) (run fuel (hoist A s p)).
Proof. exact hoist_sound. Qed.
Print Assumptions C01_hoist_sound.

(* RemoveExplicitReturnNone, on the control-flow core (Model/ControlFlow.v: function bodies of statement skeletons -
   opaque simple statements, return / return None / return <value>, if/else, loops, try/else/finally, nested definitions -
   with every branch decision drawn from an arbitrary oracle; exceptions are not modelled there): calling the rewritten body gives the same trace of effects, the same returned value and
   the same remaining oracle as calling the original, for every body, oracle and fuel (fuel is only the recursion bound) *)
Theorem C01_return_none_sound : forall body f o r,
  (ControlFlow.call f o body = Some r -> ControlFlow.call (S f) o (ControlFlow.ret_body body) = Some r) /\
  (ControlFlow.call f o (ControlFlow.ret_body body) = Some r -> ControlFlow.call (S (S f)) o body = Some r).
Proof. split; [apply ControlFlowProofs.ret_body_call_fwd | apply ControlFlowProofs.ret_body_call_bwd]. Qed.
Print Assumptions C01_return_none_sound.

(* non-vacuity: a loop that prints, a hoisted literal, a renaming *)
Definition ex_prog : list mstmt :=
  [SAssign 1 (MInt 0); SWhile (MBin OLt (MVar 1) (MInt 3)) [SPrint (MBin OAdd (MVar 1) (MBin OMul (MInt 2) (MInt 5))); SPass; SAssign 1 (MBin OAdd (MVar 1) (MInt 1))];
   SPrint (MStr 7); SIf (MBin OEq (MStr 7) (MStr 7)) [SPass] []; SPrint (MVar 9)]%N%Z.
Example C01_example :
  option_map events (run 10 ex_prog) = Some [VInt 10; VInt 11; VInt 12; VStr 7]%Z%N /\
  option_map ended (run 10 ex_prog) = Some (Raised NameError) /\
  option_map events (run 10 (hoist 50%N 7%N (remove_pass ex_prog))) = Some [VInt 10; VInt 11; VInt 12; VStr 7]%Z%N /\
  forallb (fresh_stmt 50%N) ex_prog = true.
Proof. vm_compute. repeat split. Qed.
