(* C10 — names the user asks to preserve are preserved. *)
From Coq Require Import String.
From PM Require Import Model.Base Model.Renamer Proofs.RenamerProofs Model.PipelineBase Gen.Pipeline Proofs.PipelineProofs.

Theorem C10_locals : forall pick should prefix_globals rl pl bs rg b n m,
  NoDup (map b_id bs) -> In b bs -> b_module b = false -> b_name b = Some n -> In n pl ->
  In (b_id b, m) (assign pick should prefix_globals (map (allow_locals rl pl) bs) rg) -> m = Some n.
Proof.
  intros pick should pg rl pl bs rg b n m Hnd Hb Hm Hn Hin R. rewrite <- Hn.
  apply (assign_map_not_allowed pick should pg (allow_locals rl pl) bs rg b m (allow_locals_keeps rl pl) Hnd Hb); [|exact R].
  now apply (allow_locals_preserved rl pl b n).
Qed.
Print Assumptions C10_locals.

Theorem C10_globals : forall pick should prefix_globals rgl pg bs rg b n m,
  NoDup (map b_id bs) -> In b bs -> b_module b = true -> b_name b = Some n -> In n pg ->
  In (b_id b, m) (assign pick should prefix_globals (map (allow_globals rgl pg) bs) rg) -> m = Some n.
Proof.
  intros pick should pgl rgl pg bs rg b n m Hnd Hb Hm Hn Hin R. rewrite <- Hn.
  apply (assign_map_not_allowed pick should pgl (allow_globals rgl pg) bs rg b m (allow_globals_keeps rgl pg) Hnd Hb); [|exact R].
  now apply (allow_globals_preserved rgl pg b n).
Qed.
Print Assumptions C10_globals.

(* no OTHER binding visible at module level takes a preserved global name *)
Theorem C10_preserved_global_not_taken : forall pick should prefix_globals,
  (forall p l, ~ In (pick p l) l) ->
  forall bs rg b n, Forall wf_binding bs -> NoDup (map b_id bs) -> In b bs -> In 0%N (b_scope b) -> In n rg ->
    In (b_id b, Some n) (assign pick should prefix_globals bs rg) -> pinned b n.
Proof. exact assign_avoids_reserved_globals. Qed.
Print Assumptions C10_preserved_global_not_taken.

(* asking to preserve a name does not change how any binding with another name is treated *)
Theorem C10_noninterference : forall rl pl rg pg b,
  name_in b pl = false -> name_in b pg = false ->
  allow_globals rg pg (allow_locals rl pl b) = allow_globals rg [] (allow_locals rl [] b).
Proof.
  intros rl pl rg pg b Hl Hg. rewrite (allow_locals_other rl pl b Hl). apply allow_globals_other.
  unfold name_in. now rewrite (proj2 (allow_locals_keeps rl [] b)).
Qed.
Print Assumptions C10_noninterference.

(* argument handling in minify(), re-read from the source: both lists are normalised (None -> [], bare string -> [string])
   before use, forwarded to the right stage, the preserved globals are also handed to rename(); awslambda forwards the
   entrypoint as preserve_globals *)
#[local] Open Scope string_scope.
Definition normalised (v : string) (body : list pstmt) : bool :=
  existsb (fun s => match s with PNormalise v' _ => String.eqb v v' | _ => false end) body.
Theorem C10_argument_wiring :
  normalised "preserve_locals" minify_body = true /\ normalised "preserve_globals" minify_body = true /\
  In (PStage GTrue "allow_rename_locals" ["rename_locals"; "preserve_locals"]) minify_body /\
  In (PStage GTrue "allow_rename_globals" ["rename_globals"; "preserve_globals"]) minify_body /\
  In (PStage GTrue "rename" ["prefix_globals=not rename_globals"; "preserved_globals=preserve_globals"]) minify_body /\
  In ("preserve_globals", "[entrypoint]") awslambda_keywords /\ In ("rename_globals", "rename_globals") awslambda_keywords.
Proof.
  repeat (split; [reflexivity|]). repeat split;
    [exact allow_rename_locals_wiring | exact allow_rename_globals_wiring | exact rename_wiring | cbn; tauto | cbn; tauto].
Qed.
Print Assumptions C10_argument_wiring.
