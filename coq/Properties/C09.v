(* C09 — dynamic name access freezes every name in the module. *)
From Coq Require Import String.
From PM Require Import Model.Base Model.Renamer Proofs.RenamerProofs Model.PipelineBase Gen.Pipeline Proofs.PipelineProofs Gen.ResolveNames.
#[local] Open Scope string_scope.

(* statement list of minify(), re-read on every run: with module.tainted no stage that introduces or changes names runs,
   whatever the options; rename_locals and rename_globals are forced to False BEFORE they are consumed *)
Theorem C09_tainted_gates : forall O ann,
  stage_runs minify_body O true ann "rename_literals" = false /\
  stage_runs minify_body O true ann "remove_no_arg_exception_call" = false.
Proof. split; lazy; destruct (O _); reflexivity. Qed.
Print Assumptions C09_tainted_gates.

(* what sets module.tainted, re-read from the source on every run: the unshadowed use of exec / eval / locals / globals / vars
   (resolve_names.get_binding: any reference that reaches the module under such a name, also when the module binds the name itself), a star import and an import of timeit (NameBinder.visit_alias); and the
   ONLY other assignment to a `.tainted` attribute anywhere in rename/ and __init__.py is the initialisation to False *)
Theorem C09_taint_sources_are_the_reviewed_ones :
  taint_builtins = ["exec"; "eval"; "locals"; "globals"; "vars"] /\ taint_modules = ["timeit"] /\ star_import_taints = true /\
  taint_regardless_of_module_binding = true /\
  tainted_writes = [("rename/bind_names.py", "False"); ("rename/bind_names.py", "True"); ("rename/bind_names.py", "True");
                    ("rename/resolve_names.py", "True"); ("rename/resolve_names.py", "True"); ("rename/resolve_names.py", "True")].
Proof. repeat split. Qed.
Print Assumptions C09_taint_sources_are_the_reviewed_ones.

Fixpoint index_of (p : pstmt -> bool) (l : list pstmt) : option nat :=
  match l with [] => None | x :: l' => if p x then Some 0 else option_map S (index_of p l') end.
Definition is_force (s : pstmt) : bool := match s with PForceFalse GTainted ["rename_globals"; "rename_locals"] => true | _ => false end.
Definition is_stage (c : string) (s : pstmt) : bool := match s with PStage _ c' _ => String.eqb c c' | _ => false end.
Definition before (a b : option nat) : bool := match a, b with Some x, Some y => Nat.ltb x y | _, _ => false end.
Theorem C09_flags_forced_before_use :
  before (index_of (is_stage "resolve_names") minify_body) (index_of is_force minify_body) = true /\
  before (index_of is_force minify_body) (index_of (is_stage "allow_rename_locals") minify_body) = true /\
  before (index_of is_force minify_body) (index_of (is_stage "allow_rename_globals") minify_body) = true /\
  before (index_of is_force minify_body) (index_of (is_stage "rename") minify_body) = true /\
  In (PStage GTrue "allow_rename_locals" ["rename_locals"; "preserve_locals"]) minify_body /\
  In (PStage GTrue "allow_rename_globals" ["rename_globals"; "preserve_globals"]) minify_body.
Proof.
  repeat (split; [reflexivity|]). split; [exact allow_rename_locals_wiring | exact allow_rename_globals_wiring].
Qed.
Print Assumptions C09_flags_forced_before_use.

#[local] Close Scope string_scope.
(* with both flags False every NameBinding / BuiltinBinding of the table is marked not renameable ... *)
Theorem C09_everything_pinned : forall pl pg b,
  b_allow (allow_globals false pg (allow_locals false pl b)) = false.
Proof.
  intros pl pg b. unfold allow_globals, allow_locals. destruct (b_module b) eqn:Hm.
  - (* a module binding passes allow_locals unchanged *) now rewrite Hm.
  - (* disallow keeps b_module, so allow_globals passes the result on *) cbn. now rewrite Hm.
Qed.
Print Assumptions C09_everything_pinned.
(* ... and a table in which nothing is renameable comes out of the name assignment unchanged *)
Theorem C09_frozen : forall pick should prefix_globals bs rg,
  NoDup (map b_id bs) -> (forall b, In b bs -> b_allow b = false) ->
  forall b n, In b bs -> In (b_id b, n) (assign pick should prefix_globals bs rg) -> n = b_name b.
Proof. intros pick should pg bs rg Hnd Hall b n Hb R. eapply assign_not_allowed; eauto. Qed.
Print Assumptions C09_frozen.
