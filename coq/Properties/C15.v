(* C15 — in-place minification touches only Python files and never corrupts one (effect model of main). *)
From Coq Require Import String.
From PM Require Import Model.CliBase Gen.Cli Proofs.CliSpec Proofs.CliProofs.
Open Scope bool_scope.

Theorem C15_targets : forall api fs env stdin a p b,
  In (EWrite p b) (fst (cli api fs env stdin a)) ->
  (a_in_place a = true /\ In (WPath p) (source_modules fs a)) \/
  (truthy (a_output a) = true /\ p = opt_get (a_output a)).
Proof.
  intros api fs env stdin a p b Hin.
  apply cli_effects in Hin as [Hv [(q & [H|H])|(src & fn & b' & Hsrc & _ & Hin)]]; try discriminate.
  apply deliver_In in Hin. destruct (a_in_place a) eqn:Hi.
  - injection Hin as -> ->. destruct Hsrc as [(_ & _ & Hp)|[Hp _]]; [|auto].
    rewrite (validate_stdin fs a Hv Hp) in Hi. discriminate.
  - destruct (truthy (a_output a)); [|discriminate]. injection Hin as -> ->. auto.
Qed.
Print Assumptions C15_targets.

Theorem C15_selected_files : forall fs a p,
  In (WPath p) (source_modules fs a) ->
  (In p (a_path a) /\ fs_isdir fs p = false) \/
  (exists d root files f, In d (a_path a) /\ fs_isdir fs d = true /\ In (inl (root, files)) (fs_walk fs d) /\
       In f files /\ (endswith f (t ".py") || endswith f (t ".pyw")) = true /\ p = path_join root f).
Proof.
  unfold source_modules, walk_dir. intros fs a p Hin.
  apply in_flat_map in Hin as (d & Hd & Hin). destruct (fs_isdir fs d) eqn:Hdir.
  - right. apply in_flat_map in Hin as ([[root files]|[]] & Hx & Hin); [|destruct Hin as [[=]|[]]].
    apply in_map_iff in Hin as (f & [= <-] & Hfin). apply filter_In in Hfin as [Hfin Hsuf].
    cbn [existsb] in Hsuf. rewrite orb_false_r in Hsuf. exists d, root, files, f. repeat split; assumption.
  - left. destruct Hin as [[= <-]|[]]. auto.
Qed.
Print Assumptions C15_selected_files.

Theorem C15_content_in_place : forall api fs env stdin a p b,
  a_in_place a = true -> In (EWrite p b) (fst (cli api fs env stdin a)) ->
  validate fs a = None /\
  exists src m, fs_read fs p = Some src /\ api src p (opts_of a) = ApiOk m /\ b = utf8 m.
Proof.
  intros api fs env stdin a p b Hi Hin.
  apply cli_effects in Hin as [Hv [(q & [H|H])|(src & fn & b' & Hsrc & Hd & Hin)]]; try discriminate.
  split; [exact Hv|]. apply deliver_In in Hin. rewrite Hi in Hin. injection Hin as -> ->.
  destruct Hsrc as [(_ & _ & Hp)|[_ Hr]]; [rewrite (validate_stdin fs a Hv Hp) in Hi; discriminate|].
  apply delivered_inv in Hd as (m & Hm & [[-> _]|(_ & _ & Hni)]); [exists src, m; auto|congruence].
Qed.
Print Assumptions C15_content_in_place.

Theorem C15_main_is_run_items : forall api fs env stdin a,
  cli api fs env stdin a =
  match validate fs a with Some c => ([], Exit c) | None => main_spec api fs env stdin a end.
Proof. exact cli_spec. Qed.
Print Assumptions C15_main_is_run_items.

Theorem C15_failure_prefix : forall api fs env a l1 p l2 es st,
  snd (run_items api fs env a l1) = Done ->
  file_step api fs env a p = (es, st) -> st <> Done ->
  run_items api fs env a (l1 ++ WPath p :: l2) = (fst (run_items api fs env a l1) ++ es, st) /\
  (forall e, In e es -> is_write e = false).
Proof.
  intros api fs env a l1 p l2 es st Hd Hf Hst. split; [|exact (file_step_failure_no_write Hf Hst)].
  rewrite run_items_app, Hd. cbn [run_items]. rewrite Hf.
  destruct st; [congruence| |]; reflexivity.
Qed.
Print Assumptions C15_failure_prefix.

Theorem C15_walk_error_prefix : forall api fs env a l1 l2,
  snd (run_items api fs env a l1) = Done ->
  run_items api fs env a (l1 ++ WErr :: l2) = (fst (run_items api fs env a l1) ++ [], Raised OSError).
Proof. intros api fs env a l1 l2 Hd. rewrite run_items_app, Hd. reflexivity. Qed.
Print Assumptions C15_walk_error_prefix.

Theorem C15_order : forall api fs env a p es st,
  file_step api fs env a p = (es, st) ->
  es = announce a p \/
  exists src, fs_read fs p = Some src /\
    (es = announce a p ++ [ERead p] \/
     exists b, es = announce a p ++ [ERead p] ++ deliver a p b /\
        (do_minify api env src p a = DmOk b \/ (do_minify api env src p a = DmNotBeneficial /\ b = src))).
Proof.
  intros api fs env a p es st.
  unfold file_step. intro H. destruct (fs_read fs p) as [src|].
  - right. exists src. split; [reflexivity|].
    destruct (do_minify api env src p a) as [m| |ex]; injection H as <- <-.
    + right. exists m. auto.
    + destruct (a_in_place a).
      * left. reflexivity.
      * right. exists src. auto.
    + left. reflexivity.
  - left. injection H as <- <-. reflexivity.
Qed.
Print Assumptions C15_order.

(* non-vacuity: a tree with a directory holding a .py, a .txt and an unreadable .pyw; --in-place *)
Definition ex_fs : fsys := {|
  fs_isdir := fun p => text_eqb p (t "d");
  fs_walk := fun p => if text_eqb p (t "d") then [inl (t "d", [t "a.py"; t "n.txt"; t "b.pyw"; t "c.py"])] else [];
  fs_read := fun p => if text_eqb p (t "d/a.py") then Some (t "x  =  1") else if text_eqb p (t "d/c.py") then Some (t "y  =  2") else None |}.
Definition ex_api : api_t := fun src _ _ => ApiOk (t "x=1").
Definition ex_args : args := args_of (fun f => flag_eqb f F_in_place) [t "d"] None None None.
Example C15_failure_example :
  cli ex_api ex_fs None [] ex_args =
  ([EOutT (t "d/a.py" ++ [10%N]); ERead (t "d/a.py"); EWrite (t "d/a.py") (t "x=1"); EOutT (t "d/b.pyw" ++ [10%N])], Raised OSError).
Proof. vm_compute. reflexivity. Qed.
