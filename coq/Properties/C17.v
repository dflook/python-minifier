(* C17 — turning a size optimisation on never makes the output longer (on a pinned corpus of real code).
   The property itself is a statement about a FINITE pinned corpus and is decided by measurement (harness/props/c17.py).
   Proved here are the local facts about the cost model it rests on. *)
From PM Require Import Model.Base Gen.TokenRules Model.Cost Proofs.CostProofs Model.Fold Proofs.FoldProofs.
Open Scope nat_scope.

(* renaming: identifier tokens stay identifier tokens, so no space appears or disappears and the rendered length changes
   by exactly the change of the lexeme lengths (any previous token class, the spacing table regenerated from the source) *)
Theorem C17_rename_len_delta : forall prev a b, same_kinds a b -> rlen prev b + total a = rlen prev a + total b.
Proof. exact rename_len_delta. Qed.
Print Assumptions C17_rename_len_delta.
Theorem C17_rename_never_longer : forall prev a b, same_kinds a b -> total b <= total a -> rlen prev b <= rlen prev a.
Proof. exact rename_len_exact. Qed.
Print Assumptions C17_rename_never_longer.
(* the cost model of NameBinding: if every accounted mention is a token of the stated length, should_rename = true
   exactly when the total lexeme length does not grow *)
Theorem C17_should_rename_is_the_length_test : forall refs old_len new_len old_m new_m add,
  should_rename_name refs old_len new_len old_m new_m add = true <-> old_m * old_len + new_m * new_len + add <= refs * old_len.
Proof. intros. unfold should_rename_name. apply Nat.leb_le. Qed.
Print Assumptions C17_should_rename_is_the_length_test.
(* the per-reference accounting of Binding.additional_byte_cost / old_mention_count / new_mention_count (Model/Cost.v,
   compared with the real methods on real binding tables by leg K) is EXACT on the lexeme level: should_rename approves a
   rename exactly when the identifiers, the ` as ` of every import that gains one, and the inserted `new=old` + newline
   together are not longer than the identifiers they replace *)
Theorem C17_cost_accounting_exact : forall refs old_len new_len, simple_refs refs = true ->
  (should_rename_refs refs old_len new_len = true <-> text_after refs old_len new_len <= text_before refs old_len).
Proof.
  intros refs old_len new_len [Hsim Harg%Nat.leb_le]%andb_true_iff. unfold should_rename_refs.
  rewrite C17_should_rename_is_the_length_test, (text_after_priced Harg), (text_before_simple Hsim). reflexivity.
Qed.
Print Assumptions C17_cost_accounting_exact.
(* folding: a node is replaced only by a strictly shorter text (any printer / interpreter) *)
Theorem C17_fold_strictly_shorter : forall pr ev reparse_ok repr_fails l o r,
  try_fold pr ev reparse_ok repr_fails l o r = Bin l o r \/
  length (pr (try_fold pr ev reparse_ok repr_fails l o r)) < length (pr (Bin l o r)).
Proof. exact try_fold_shorter. Qed.
Print Assumptions C17_fold_strictly_shorter.
(* hoisting: the unconditional analogue is FALSE of the faithful model; the witness is kept (it is not a violation of C17
   as stated: the property quantifies over the pinned corpus) *)
Theorem C17_hoist_cost_model_refuted :
  rlen CNewLine ret_lit = 8 /\ rlen CNewLine ret_name = 8 /\ total ret_name + 1 = total ret_lit.
Proof. exact hoist_cost_model_ignores_spacing. Qed.
Print Assumptions C17_hoist_cost_model_refuted.
