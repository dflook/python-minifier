(* C02 — printed source re-parses to exactly the same syntax tree.
   Proved in Coq for the OPERATOR CORE (names, integer literals, the 13 binary and 4 unary operators, any nesting):
   the token sequence produced by the printer model (its parenthesisation decisions read from the precedence table that
   is regenerated from expression_printer.py on every run) is parsed by a reference parser written from the Python
   grammar back into exactly the tree that was printed; and for integer literals, for the word-token rows of the spacing
   table, for the string text MiniString writes and for str / bytes constants nested in f-string fields (below).
   Everything else (comparison chains, boolean operators, calls, subscripts, displays, comprehensions, lambda,
   conditional expressions, the f-string candidate search, statements, float formatting, the rest of token spacing) is
   decided by the strict round-trip oracle only: see DESIGN 0.2. *)
From Coq Require Import String.
From PM Require Import Model.Base Model.SyntaxBase Model.Syntax Proofs.SyntaxProofs Model.IntLit Proofs.IntLitProofs Model.MiniString Proofs.MiniStringProofs Model.StrDecode Proofs.StrDecodeProofs Model.FStr Model.FStrValue Proofs.FStrProofs Proofs.FStrValueProofs Model.PipelineBase Gen.Pipeline Gen.TokenRules.
Open Scope nat_scope.

Theorem C02_roundtrip_operator_core : forall e,
  exists n, forall fuel, fuel >= n -> pexpr fuel 0 (pr e) = Some (e, []).
Proof. intro e. exists (need e + 4). apply roundtrip. Qed.
Print Assumptions C02_roundtrip_operator_core.

(* printing an operand in any context: the parser, started at the context's level on the printed operand followed by
   whatever the loop would see next, behaves as if it had been handed the operand tree *)
Theorem C02_operand_in_context : forall e, exists n, forall f minp rest x,
   bp_ok e minp -> follow_ok e rest -> ploop f e minp rest = Some x -> pexpr (n + f) minp (pr e ++ rest) = Some x.
Proof. exact key. Qed.
Print Assumptions C02_operand_in_context.

Theorem C02_int_literal_roundtrip : forall v, int_of_literal (print_int v) = Some v.
Proof. exact int_literal_roundtrip. Qed.
Print Assumptions C02_int_literal_roundtrip.

(* token spacing (table regenerated from token_printer.py): a word-like token (identifier, keyword, number, prefixed or
   alphabetic-prefix literal) that follows an identifier or keyword, and a word that follows a number, always get a space *)
Theorem C02_word_tokens_are_separated :
  forallb (fun prev => forallb (fun e => space_needed prev e) [EIdentifier; EKeyword; ESoftKeyword; EString true; EBytes; EFString; EInteger; EFloat; EImag])
          [CIdentifier; CKeyword; CSoftKeyword] = true /\
  forallb (fun e => space_needed CNumberLiteral e) [EIdentifier; EKeyword; ESoftKeyword] = true.
Proof. vm_compute. split; reflexivity. Qed.
Print Assumptions C02_word_tokens_are_separated.

(* with every transform switched off no tree-changing stage of minify() runs (statement list regenerated from the source);
   rename() still runs but every binding has been marked not renameable (C09_everything_pinned) *)
#[local] Open Scope string_scope.
Theorem C02_all_off_runs_no_transform : forall tainted,
  forallb (fun c => negb (stage_runs minify_body (fun _ => false) tainted false c))
    ["RemoveLiteralStatements"; "CombineImports"; "RemoveAnnotations"; "RemovePass"; "RemoveObject"; "RemoveAsserts"; "RemoveDebug";
     "RemoveExplicitReturnNone"; "FoldConstants"; "remove_no_arg_exception_call"; "rename_literals"; "remove_posargs"] = true.
Proof. intros []; vm_compute; reflexivity. Qed.
Print Assumptions C02_all_off_runs_no_transform.

#[local] Close Scope string_scope.
(* non-vacuity: -(a ** -b) ** c * (d + e), not (a | b ^ c) *)
Example C02_example :
  pr (EBin (EBin (EUn USub (EBin (EName 1) Pow (EUn USub (EName 2)))) Pow (EName 3)) Mult (EBin (EName 4) SyntaxBase.Add (EName 5)))
  = [TLP; TOp Sub; TName 1; TOp Pow; TOp Sub; TName 2; TRP; TOp Pow; TName 3; TOp Mult; TLP; TName 4; TOp SyntaxBase.Add; TName 5; TRP]%N /\
  pexpr 40 0 (pr (EUn Not (EBin (EName 1) BitOr (EBin (EName 2) BitXor (EName 3)))))%N = Some (EUn Not (EBin (EName 1) BitOr (EBin (EName 2) BitXor (EName 3))), [])%N.
Proof. vm_compute. split; reflexivity. Qed.

(* string text written by the minifier itself (ordinary str / bytes constants are printed by CPython's own repr(), which is
   trusted; MiniString is what f_string.py uses for the literal parts of f-strings, before it doubles the braces): what
   MiniString writes between the quotes (Model/MiniString.v, compared with ministring.py by leg D and
   by the leg of C12), followed by the closing quote(s) and ANY further text, is read back by the reference decoder
   (Model/StrDecode.v: the escape rules of the Python lexical analysis as a state machine, compared with CPython by leg D) as
   exactly the original string, leaving exactly the text that followed - for every string of code points, both quote
   characters, normal and safe (ASCII-only) mode, short and triple-quoted form *)
Theorem C02_string_literal_roundtrip_short : forall safe q s rest, is_quote q -> Forall code_point s ->
  decode_short q (to_short safe q s ++ q :: rest) = Some (s, rest).
Proof.
  intros safe q s rest Hq. apply (pieces_decode false q _ s rest Hq). intro c. apply short_char_piece, Hq.
Qed.
Print Assumptions C02_string_literal_roundtrip_short.
Theorem C02_string_literal_roundtrip_long : forall safe q s rest, is_quote q -> Forall code_point s ->
  decode_long q (to_long safe q s ++ q :: q :: q :: rest) = Some (s, rest).
Proof.
  intros safe q s rest Hq. apply (pieces_decode true q _ s rest Hq). intro c. apply long_char_piece; [exact Hq | discriminate].
Qed.
Print Assumptions C02_string_literal_roundtrip_long.
(* non-vacuity: quote, backslash, newline, NUL, CR, a Latin-1 letter, a CJK character and an emoji, in safe mode *)
Example C02_string_example :
  let s := [39; 92; 10; 0; 13; 233; 20013; 128512; 34]%N in
  Forall code_point s /\ decode_short 39%N (to_short true 39%N s ++ [39; 43]%N) = Some (s, [43]%N)
  /\ to_short true 39%N s = [92;39; 92;92; 92;110; 92;120;48;48; 92;114; 92;117;48;48;101;57; 92;117;52;101;50;100; 92;85;48;48;48;49;102;54;48;48; 34]%N.
Proof. split; [repeat constructor|]. split; vm_compute; reflexivity. Qed.

(* string constants NESTED IN AN F-STRING replacement field (Python 3.12+): the text f_string.Str evaluates and writes
   (Model/FStr.v: the value cut into literals, the quote switched whenever the next character is the current quote
   character; compared with the real class by leg Q) consists of literals whose decoded values, concatenated as the
   interpreter concatenates adjacent literals, are exactly the original string - for every string of code points and
   each of the four starting quotes *)
Theorem C02_fstring_nested_str_value : forall start s, In start full_quotes -> Forall code_point s ->
  exists txt, str_candidate start s = Some txt /\ lits_value txt s.
Proof.
  apply (candidate_value [] esc_str dec code_point _ esc_str_piece).
  - intros long q c tail Hcq Hc. apply piece_dec; [apply esc_str_piece; exact Hcq | exact Hc].
  - exact dec_close.
Qed.
Print Assumptions C02_fstring_nested_str_value.
(* ... and for a bytes constant nested in an f-string field (f_string.Bytes): b-prefixed literals whose decoded bytes
   (Model/StrDecode.v decb: the bytes-literal rules, compared with CPython by leg D) concatenate to the original bytes *)
Theorem C02_fstring_nested_bytes_value : forall start s, In start full_quotes -> Forall byte_val s ->
  exists txt, bytes_candidate start s = Some txt /\ lits_value_bytes txt s.
Proof.
  apply (candidate_value [98%N] esc_bytes decb byte_val _ esc_bytes_piece).
  - apply esc_bytes_dec.
  - exact decb_close.
Qed.
Print Assumptions C02_fstring_nested_bytes_value.
