(* C04 — externally visible names are never changed (renamer core; the classification of bindings as not renameable is
   the analysis's and is decided by the interface oracle). *)
From Coq Require Import String.
From PM Require Import Model.Base Model.Renamer Proofs.RenamerProofs Model.RenamerRun Model.PipelineBase Gen.Pipeline Proofs.PipelineProofs.

(* a binding the analysis marked as not renameable keeps its spelling, whatever the cost model and the name source *)
Theorem C04_pinned_bindings_keep_their_name : forall pick should prefix_globals bs rg b n,
  NoDup (map b_id bs) -> In b bs -> b_allow b = false -> In (b_id b, n) (assign pick should prefix_globals bs rg) -> n = b_name b.
Proof. exact assign_not_allowed. Qed.
Print Assumptions C04_pinned_bindings_keep_their_name.

(* without rename_globals every module-level binding is marked not renameable ... *)
Theorem C04_module_bindings_pinned_unless_rename_globals : forall pg b,
  b_module b = true -> b_allow (allow_globals false pg b) = false /\ b_name (allow_globals false pg b) = b_name b.
Proof. intros pg b Hm. unfold allow_globals. rewrite Hm. split; reflexivity. Qed.
Print Assumptions C04_module_bindings_pinned_unless_rename_globals.

(* ... and any name the minifier adds at module level (builtin aliases, hoisted literals) starts with an underscore:
   rename() is called with prefix_globals = not rename_globals, and the name source prefixes '_' for module bindings *)
Theorem C04_rename_called_with_prefix_globals :
  In (PStage GTrue "rename" ["prefix_globals=not rename_globals"%string; "preserved_globals=preserve_globals"%string]) minify_body.
Proof. exact rename_wiring. Qed.
Print Assumptions C04_rename_called_with_prefix_globals.
Theorem C04_added_module_names_start_with_underscore : forall forbidden,
  pick_stream true forbidden = [] \/ exists rest, pick_stream true forbidden = 95%N :: rest.
Proof.
  intro forbidden. unfold pick_stream. destruct (filter _ _) as [|n r] eqn:E; [now left|right].
  pose proof (in_eq n r) as H. rewrite <- E in H. apply filter_In in H as [H _]. apply in_map_iff in H as (x & <- & _). eauto.
Qed.
Print Assumptions C04_added_module_names_start_with_underscore.
Theorem C04_module_binding_gets_prefixed_pick : forall pick should b a n,
  b_module b = true -> decide pick should true b a = Some n -> b_name b <> Some n ->
  n = pick true (names_in a (b_scope b)).
Proof.
  intros pick should b a n Hm Hd Hne. destruct (decide_cases pick should true b a) as [Hc|[Hk _]]; [|congruence].
  rewrite Hd, Hm in Hc. now injection Hc.
Qed.
Print Assumptions C04_module_binding_gets_prefixed_pick.
